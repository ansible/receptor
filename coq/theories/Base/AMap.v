(* Base/AMap.v — finite maps with N keys as association lists.  [aget] takes the first match and
   [aset] inserts in key order, so a map built by [aset] alone is sorted and comparable as a list with
   what the harness prints (observed Go maps, sorted); the laws below do not need sortedness. *)
From Receptor Require Export Base.Hex.
Open Scope N_scope.

Section AMap.
Context {V : Type}.
Definition amap := list (N * V).

Fixpoint aget (k : N) (m : amap) : option V :=
  match m with
  | [] => None
  | (k', v) :: r => if k' =? k then Some v else aget k r
  end.

Fixpoint aset (k : N) (v : V) (m : amap) : amap :=
  match m with
  | [] => [(k, v)]
  | (k', v') :: r =>
    if k <? k' then (k, v) :: m
    else if k =? k' then (k, v) :: r
    else (k', v') :: aset k v r
  end.

Fixpoint adel (k : N) (m : amap) : amap :=
  match m with
  | [] => []
  | (k', v') :: r => if k' =? k then adel k r else (k', v') :: adel k r
  end.

Definition akeys (m : amap) : list N := map fst m.
Definition amem (k : N) (m : amap) : bool := match aget k m with Some _ => true | None => false end.

Lemma aget_In m k v : aget k m = Some v -> In (k, v) m.
Proof.
  induction m as [|[k' v'] r IH]; simpl; [discriminate|].
  destruct (N.eqb_spec k' k) as [->|_]; intro H; [|right; now apply IH].
  injection H as ->. now left.
Qed.

Lemma amem_aget m k : amem k m = true <-> exists v, aget k m = Some v.
Proof.
  unfold amem. destruct (aget k m) as [v|]; split; [now exists v|reflexivity|discriminate|].
  intros [v H]. discriminate.
Qed.

Lemma aget_aset_same k v m : aget k (aset k v m) = Some v.
Proof.
  induction m as [|[k' v'] r IH]; simpl.
  - now rewrite N.eqb_refl.
  - destruct (k <? k') eqn:E1; simpl; [now rewrite N.eqb_refl|].
    destruct (k =? k') eqn:E2; simpl; [now rewrite N.eqb_refl|].
    rewrite N.eqb_sym, E2. exact IH.
Qed.

Lemma aget_aset_other k k2 v m : k2 <> k -> aget k2 (aset k v m) = aget k2 m.
Proof.
  intro Hne. assert (Hf : (k =? k2) = false) by (apply N.eqb_neq; congruence).
  induction m as [|[k' v'] r IH]; simpl; [now rewrite Hf|].
  destruct (k <? k'); simpl; [now rewrite Hf|].
  destruct (N.eqb_spec k k') as [<-|_]; simpl; [now rewrite !Hf|now rewrite IH].
Qed.

Lemma aget_adel_same k m : aget k (adel k m) = None.
Proof.
  induction m as [|[k' v'] r IH]; simpl; [reflexivity|].
  destruct (k' =? k) eqn:E; [exact IH|]. simpl. now rewrite E.
Qed.

Lemma aget_adel_other k k2 m : k2 <> k -> aget k2 (adel k m) = aget k2 m.
Proof.
  intro Hne. assert (Hf : (k =? k2) = false) by (apply N.eqb_neq; congruence).
  induction m as [|[k' v'] r IH]; simpl; [reflexivity|].
  destruct (N.eqb_spec k' k) as [->|_]; simpl; [now rewrite Hf|now rewrite IH].
Qed.

Lemma adel_notin k m : amem k m = false -> adel k m = m.
Proof.
  unfold amem. induction m as [|[k' v] r IH]; simpl; [reflexivity|].
  destruct (k' =? k); [discriminate|]. intro H. f_equal. now apply IH.
Qed.
End AMap.
Arguments amap V : clear implicits.

Fixpoint mem_N (x : N) (l : list N) : bool :=
  match l with [] => false | y :: r => (x =? y) || mem_N x r end.

Lemma mem_N_In x l : mem_N x l = true <-> In x l.
Proof.
  induction l as [|y r IH]; simpl; [split; [discriminate|tauto]|].
  rewrite orb_true_iff, IH, N.eqb_eq. split; intros [H|H]; auto.
Qed.

(* sorted insertion into a set of N (no duplicates) *)
Fixpoint sadd (x : N) (l : list N) : list N :=
  match l with
  | [] => [x]
  | y :: r => if x <? y then x :: l else if x =? y then l else y :: sadd x r
  end.

Lemma sadd_In x y l : In y (sadd x l) <-> y = x \/ In y l.
Proof.
  induction l as [|z r IH]; simpl; [intuition|].
  destruct (x <? z); simpl; [intuition|].
  destruct (x =? z) eqn:E; simpl.
  - apply N.eqb_eq in E; subst. intuition.
  - rewrite IH. intuition.
Qed.

Lemma mem_N_sadd y x l : mem_N y (sadd x l) = (y =? x) || mem_N y l.
Proof.
  apply eq_true_iff_eq. now rewrite orb_true_iff, !mem_N_In, sadd_In, N.eqb_eq.
Qed.

Lemma mem_sadd_same x l : mem_N x (sadd x l) = true.
Proof. now rewrite mem_N_sadd, N.eqb_refl. Qed.

Lemma mem_sadd_mono x y l : mem_N x l = true -> mem_N x (sadd y l) = true.
Proof. intro H. now rewrite mem_N_sadd, H, orb_true_r. Qed.

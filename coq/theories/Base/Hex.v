(* Base/Hex.v — byte strings as [list N]; hex literals used by the correspondence case files.
   The harness prints every byte string as a Coq [string] of hex digits (one lexer token, fast to
   parse) and the model side turns it back into a list of bytes with [hx]. *)
From Coq Require Import String Ascii.
From Coq Require Export List NArith Bool.
Export ListNotations.
Open Scope N_scope.

Definition byte := N.
Definition bytes := list N.

Definition hexval (c : ascii) : N :=
  let n := N_of_ascii c in
  if (48 <=? n) && (n <=? 57) then n - 48
  else if (97 <=? n) && (n <=? 102) then n - 87
  else if (65 <=? n) && (n <=? 70) then n - 55
  else 0.

Fixpoint hx (s : string) : bytes :=
  match s with
  | String a (String b r) => (16 * hexval a + hexval b) :: hx r
  | _ => []
  end.

(* ASCII text of a Coq string, as bytes (used for literals such as "unreach"). *)
Fixpoint str (s : string) : bytes :=
  match s with
  | EmptyString => []
  | String a r => N_of_ascii a :: str r
  end.

Definition bytes_ok (l : bytes) : bool := forallb (fun b => b <? 256) l.

Fixpoint beq_bytes (a b : bytes) : bool :=
  match a, b with
  | [], [] => true
  | x :: a', y :: b' => (x =? y) && beq_bytes a' b'
  | _, _ => false
  end.

Lemma beq_bytes_eq a b : beq_bytes a b = true <-> a = b.
Proof.
  revert b; induction a as [|x a IH]; intros [|y b]; simpl; split; intro H;
    try reflexivity; try discriminate.
  - apply andb_true_iff in H as [H1 H2]. apply N.eqb_eq in H1. apply IH in H2. now subst.
  - inversion H; subst. rewrite N.eqb_refl. simpl. now apply IH.
Qed.

Lemma beq_false_neq a b : beq_bytes a b = false <-> a <> b.
Proof. rewrite <- beq_bytes_eq. now destruct (beq_bytes a b). Qed.

Lemma beq_bytes_refl a : beq_bytes a a = true.
Proof. now apply beq_bytes_eq. Qed.

Lemma existsb_beq_bytes_In x l : existsb (beq_bytes x) l = true <-> In x l.
Proof.
  split; intro H.
  - apply existsb_exists in H as (y & Hy & E). apply beq_bytes_eq in E. now subst.
  - apply existsb_exists. exists x. split; [exact H | apply beq_bytes_refl].
Qed.

(* The prefix test that Model/Bridge.v and Model/Results.v ([is_prefix]), Model/Ctl.v and
   Model/Secrets.v ([has_prefix]) and Model/Forward.v ([prefixb]) each define for themselves; all
   five unfold to this one. *)
Fixpoint prefix_bytes (a b : bytes) : bool :=
  match a, b with
  | [], _ => true
  | x :: a', y :: b' => (x =? y) && prefix_bytes a' b'
  | _ :: _, [] => false
  end.

Lemma prefix_bytes_iff a b : prefix_bytes a b = true <-> exists c, b = a ++ c.
Proof.
  revert b; induction a as [|x a IH]; intros b; simpl.
  - split; [intros _; now exists b|reflexivity].
  - destruct b as [|y b]; [split; [discriminate|intros [c Hc]; discriminate]|].
    rewrite andb_true_iff, N.eqb_eq, IH. split.
    + intros [-> [c ->]]. now exists c.
    + intros [c Hc]. inversion Hc; subst. split; [reflexivity|now exists c].
Qed.

(* indices of the elements of a list that fail a boolean test: what every cases file prints *)
Fixpoint failing_from {A} (i : nat) (f : A -> bool) (l : list A) : list nat :=
  match l with
  | [] => []
  | x :: r => if f x then failing_from (S i) f r else i :: failing_from (S i) f r
  end.
Definition failing {A} (f : A -> bool) (l : list A) : list nat := failing_from 0 f l.

(* Base/ListFacts.v — facts about lists that belong to no one model: what a [fold_left] run keeps,
   [firstn] and [skipn] at the seam of an append, [skipn] after [skipn]. *)
From Coq Require Import List PeanoNat.

(* The machines of the models run as [fold_left step schedule state]: what every step of the
   schedule keeps, the run keeps. *)
Lemma fold_left_invariant {S A} (f : S -> A -> S) (P : S -> Prop) l :
  (forall a s, In a l -> P s -> P (f s a)) -> forall s, P s -> P (fold_left f l s).
Proof.
  induction l as [|a l IH]; intros Hstep s Hs; [exact Hs|].
  apply IH; [|apply Hstep]; auto using in_eq, in_cons.
Qed.

(* ... and a relation between the states of two machines that every common step keeps *)
Lemma fold_left_related {S1 S2 A} (f1 : S1 -> A -> S1) (f2 : S2 -> A -> S2) (Q : S1 -> S2 -> Prop) l :
  (forall a s1 s2, In a l -> Q s1 s2 -> Q (f1 s1 a) (f2 s2 a)) ->
  forall s1 s2, Q s1 s2 -> Q (fold_left f1 l s1) (fold_left f2 l s2).
Proof.
  induction l as [|a l IH]; intros Hstep s1 s2 Hs; [exact Hs|].
  apply IH; [|apply Hstep]; auto using in_eq, in_cons.
Qed.

Lemma nth_error_lt {A} (l : list A) n x : nth_error l n = Some x -> n < length l.
Proof. intro H. apply nth_error_Some. congruence. Qed.

Lemma firstn_app_exact {A} (a r : list A) n : length a = n -> firstn n (a ++ r) = a.
Proof. intros <-. rewrite firstn_app, Nat.sub_diag, firstn_all. apply app_nil_r. Qed.

Lemma skipn_app_exact {A} (a r : list A) n : length a = n -> skipn n (a ++ r) = r.
Proof. intros <-. now rewrite skipn_app, Nat.sub_diag, skipn_all. Qed.

Lemma skipn_skipn {A} (l : list A) m n : skipn n (skipn m l) = skipn (m + n) l.
Proof.
  revert l; induction m as [|m IH]; intro l; [reflexivity|].
  destruct l as [|x l]; [destruct n; reflexivity|]. cbn [skipn Nat.add]. apply IH.
Qed.

(* Base/Perms.v — all orders of a list, as a computable list (used by the linearizability checks:
   "the observation is what the model yields for SOME order of the concurrent batch"). *)
From Coq Require Import List Permutation.
Import ListNotations.

Fixpoint insert_all {A} (x : A) (l : list A) : list (list A) :=
  match l with
  | [] => [[x]]
  | y :: r => (x :: l) :: map (cons y) (insert_all x r)
  end.
Fixpoint perms {A} (l : list A) : list (list A) :=
  match l with [] => [[]] | x :: r => flat_map (insert_all x) (perms r) end.

Lemma insert_all_In {A} (x : A) l l' : In l' (insert_all x l) ->
  exists l1 l2, l = l1 ++ l2 /\ l' = l1 ++ x :: l2.
Proof.
  revert l'. induction l as [|y r IH]; intros l' H; simpl in H.
  - destruct H as [<-|[]]. exists [], []. auto.
  - destruct H as [<-|H]; [exists [], (y :: r); auto|].
    apply in_map_iff in H. destruct H as (l0 & <- & H). destruct (IH _ H) as (l1 & l2 & -> & ->).
    exists (y :: l1), l2. auto.
Qed.

Lemma insert_all_complete {A} (x : A) l1 l2 : In (l1 ++ x :: l2) (insert_all x (l1 ++ l2)).
Proof.
  induction l1 as [|y r IH]; simpl.
  - destruct l2; simpl; auto.
  - right. apply in_map. exact IH.
Qed.

Lemma perms_complete {A} (l l' : list A) : Permutation l l' -> In l' (perms l).
Proof.
  revert l'. induction l as [|x r IH]; intros l' P.
  - apply Permutation_nil in P. subst. now left.
  - destruct (in_split x l') as (l1 & l2 & ->); [eapply Permutation_in; [exact P|now left]|].
    simpl. apply in_flat_map. exists (l1 ++ l2). split; [|apply insert_all_complete].
    eapply IH, Permutation_cons_app_inv, P.
Qed.

Lemma perms_sound {A} (l l' : list A) : In l' (perms l) -> Permutation l l'.
Proof.
  revert l'. induction l as [|x r IH]; intros l' H; simpl in H.
  - destruct H as [<-|[]]. constructor.
  - apply in_flat_map in H. destruct H as (p & Hp & Hi).
    destruct (insert_all_In _ _ _ Hi) as (l1 & l2 & -> & ->).
    apply Permutation_cons_app. now apply IH.
Qed.

Lemma existsb_perms {A} (f : list A -> bool) l :
  existsb f (perms l) = true <-> exists p, Permutation l p /\ f p = true.
Proof.
  rewrite existsb_exists. split; intros (p & Hp & H); exists p; split; auto using perms_sound, perms_complete.
Qed.

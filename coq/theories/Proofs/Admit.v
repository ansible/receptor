(* Proofs/Admit.v — invariants of the admission automaton of Model/Admit.v under EVERY
   interleaving of the atomic steps of any number of sessions, and the refutations for the
   pinned code. *)
From Coq Require Import String Lia PeanoNat.
From Receptor Require Import Base.ListFacts Model.Admit Proofs.Proto.
Open Scope N_scope.

Lemma nth_error_set_nth_same {A} {l : list A} {i} x {y} :
  nth_error l i = Some y -> nth_error (set_nth l i x) i = Some x.
Proof.
  revert i. induction l as [|a l IH]; intros [|i] H; simpl in *; try discriminate; [reflexivity|now apply IH].
Qed.

Lemma nth_error_set_nth_other {A} (l : list A) i j x :
  i <> j -> nth_error (set_nth l i x) j = nth_error l j.
Proof.
  revert i j. induction l as [|a l IH]; intros [|i] [|j] H; simpl; try reflexivity; try contradiction.
  apply IH. intro; subst; contradiction.
Qed.

(* Every step of the automaton rewrites at most one slot of the session table: that of an
   existing session, or the first free one (a session starts).  f, f': what is in the slots. *)
Definition rewritten {A} (f f' : nat -> option A) (i : nat) (v : option A) : Prop :=
  f' i = v /\ forall j, j <> i -> f' j = f j.

Lemma set_nth_rewritten {A} {l : list A} {i e} x :
  nth_error l i = Some e -> rewritten (nth_error l) (nth_error (set_nth l i x)) i (Some x).
Proof.
  intro H. split; [eapply nth_error_set_nth_same, H|].
  intros j Hj. apply nth_error_set_nth_other. congruence.
Qed.

Lemma snoc_rewritten {A} (l : list A) x :
  rewritten (nth_error l) (nth_error (l ++ [x])) (List.length l) (Some x).
Proof.
  split.
  - rewrite nth_error_app2, Nat.sub_diag by apply le_n. reflexivity.
  - intros j Hj. destruct (Nat.lt_ge_cases j (List.length l)) as [Hlt|Hge]; [now apply nth_error_app1|].
    rewrite nth_error_app2, (proj2 (nth_error_None l j) Hge) by assumption.
    destruct (j - List.length l)%nat as [|[|k]] eqn:E; [lia|reflexivity..].
Qed.

Lemma rewritten_map {A B} (g : nat -> option A -> option B) {f f' i v} :
  rewritten f f' i v -> rewritten (fun j => g j (f j)) (fun j => g j (f' j)) i (g i v).
Proof. intros [H1 H2]. split; [now rewrite H1|]. intros j Hj. now rewrite H2. Qed.

Lemma amem_true {V} (m : list (bytes * V)) k : amem m k = true <-> exists v, aget m k = Some v.
Proof.
  unfold amem. destruct (aget m k) as [v|]; split; try discriminate; [now exists v | easy | now intros []].
Qed.

Lemma amem_false {V} (m : list (bytes * V)) k : amem m k = false <-> aget m k = None.
Proof. unfold amem. destruct (aget m k); split; congruence. Qed.

Lemma amem_aset_inv {V} (m : list (bytes * V)) k k0 v :
  amem (aset m k0 v) k = true -> amem m k = true \/ k0 = k.
Proof.
  intro H. destruct (beq_bytes k k0) eqn:E.
  - right. apply beq_bytes_eq in E. now subst.
  - left. unfold amem in *. now rewrite aget_aset_other in H.
Qed.

Lemma amem_adel_inv {V} (m : list (bytes * V)) k k0 :
  amem (adel m k0) k = true -> amem m k = true /\ k <> k0.
Proof.
  intro H. destruct (beq_bytes k k0) eqn:E.
  - apply beq_bytes_eq in E. subst. unfold amem in H. now rewrite aget_adel_same in H.
  - split; [|now apply beq_false_neq]. unfold amem in *. now rewrite aget_adel_other in H.
Qed.

Lemma rm_nonempty id m : id <> [] -> rm id m = adel m id.
Proof. intro H. unfold rm. now apply isnil_false in H as ->. Qed.

Theorem admissible_spec self bi conns id :
  admissible repaired self bi conns id = true <->
  id <> [] /\ id <> self /\ allowed bi id = true /\ aget conns id = None.
Proof.
  unfold admissible. cbn [v_reject_noid repaired andb].
  rewrite !andb_true_iff, !negb_true_iff, isnil_false, beq_false_neq, amem_false. tauto.
Qed.

(* g: s.connections as a function of the remote ID; h i: the ID session i occupies and the value
   it is listed under.  Occupied IDs are listed, by one session only, and nothing else is. *)
Record links {V} (g : bytes -> option V) (h : nat -> option (bytes * V)) : Prop := {
  occupied_listed : forall i id c, h i = Some (id, c) -> g id = Some c;
  occupied_once : forall i j id c c', h i = Some (id, c) -> h j = Some (id, c') -> i = j;
  listed_occupied : forall id c, g id = Some c -> exists i, h i = Some (id, c)
}.

Arguments occupied_listed {V g h} _ i id c _.
Arguments occupied_once {V g h} _ i j id c c' _ _.
Arguments listed_occupied {V g h} _ id c _.

Lemma links_keep {V} (g : bytes -> option V) h h' i : links g h -> rewritten h h' i (h i) -> links g h'.
Proof.
  intros [A B C] [H1 H2].
  assert (E : forall j, h' j = h j) by (intro j; destruct (Nat.eq_dec j i) as [->|]; auto).
  split.
  - intros j id c. rewrite E. apply A.
  - intros j k id c c'. rewrite !E. apply B.
  - intros id c Hc. destruct (C id c Hc) as [j Hj]. exists j. now rewrite E.
Qed.

Lemma links_acquire {V} (g g' : bytes -> option V) h h' i id c :
  links g h -> h i = None -> g id = None -> rewritten h h' i (Some (id, c)) ->
  g' id = Some c -> (forall k, beq_bytes k id = false -> g' k = g k) ->
  links g' h'.
Proof.
  intros [A B C] Hnone Hfree [Hi Hoth] Hnew Hold.
  assert (Hcase : forall j id' c', h' j = Some (id', c') ->
            j = i /\ id' = id /\ c' = c \/ j <> i /\ h j = Some (id', c') /\ beq_bytes id' id = false).
  { intros j id' c' Hh. destruct (Nat.eq_dec j i) as [->|Hj]; [left|right].
    - rewrite Hi in Hh. now injection Hh as <- <-.
    - rewrite Hoth in Hh by assumption. repeat split; try assumption.
      apply beq_false_neq. intros ->. apply A in Hh. congruence. }
  split.
  - intros j id' c' Hh. destruct (Hcase _ _ _ Hh) as [(-> & -> & ->)|(_ & Hh0 & E)]; [exact Hnew|].
    rewrite Hold by exact E. eapply A, Hh0.
  - intros j k id' c1 c2 Hj Hk.
    destruct (Hcase _ _ _ Hj) as [(-> & -> & _)|(_ & Hj0 & Ej)], (Hcase _ _ _ Hk) as [(-> & E & _)|(_ & Hk0 & Ek)];
      try reflexivity.
    + now rewrite beq_bytes_refl in Ek.
    + subst id'. now rewrite beq_bytes_refl in Ej.
    + eapply B; eassumption.
  - intros id' c' Hc. destruct (beq_bytes id' id) eqn:E.
    + apply beq_bytes_eq in E as ->. rewrite Hnew in Hc. injection Hc as <-. now exists i.
    + rewrite Hold in Hc by assumption. destruct (C _ _ Hc) as [j Hj]. exists j.
      rewrite Hoth; [assumption|]. intros ->. congruence.
Qed.

Lemma links_release {V} (g g' : bytes -> option V) h h' i id c :
  links g h -> h i = Some (id, c) -> rewritten h h' i None ->
  g' id = None -> (forall k, beq_bytes k id = false -> g' k = g k) ->
  links g' h'.
Proof.
  intros [A B C] Hi [Hi' Hoth] Hgone Hold.
  assert (Hne : forall j id' c', h' j = Some (id', c') -> h j = Some (id', c') /\ beq_bytes id' id = false).
  { intros j id' c' Hh. destruct (Nat.eq_dec j i) as [->|Hj]; [congruence|].
    rewrite Hoth in Hh by assumption. split; [assumption|].
    apply beq_false_neq. intros ->. apply Hj. eapply B; eassumption. }
  split.
  - intros j id' c' Hh. destruct (Hne _ _ _ Hh) as [Hh0 Hid]. rewrite Hold by assumption. eapply A, Hh0.
  - intros j k id' c1 c2 Hj Hk. eapply B; eapply Hne; eassumption.
  - intros id' c' Hc. destruct (beq_bytes id' id) eqn:E.
    + apply beq_bytes_eq in E as ->. congruence.
    + rewrite Hold in Hc by assumption. destruct (C _ _ Hc) as [j Hj]. exists j.
      rewrite Hoth; [assumption|]. intros ->. rewrite Hi in Hj. injection Hj as -> _.
      now rewrite beq_bytes_refl in E.
Qed.

Definition ok_holder (self : bytes) (bi : binfo) (id : bytes) (c : dy) : Prop :=
  id <> [] /\ id <> self /\ allowed bi id = true /\ c = cost_for bi id.

(* what a session's phase says about the session alone: whoever occupies an ID was admissible; a
   remotely-established session heard the peer declare the same cost; a session between the two
   halves of removeConnection has a real ID to remove *)
Definition sess_ok (self : bytes) (bi : binfo) (p : phase) : Prop :=
  match p with
  | PAdmitted id c | PBooked id c => ok_holder self bi id c
  | PEst id c decl => ok_holder self bi id c /\ forall rc, decl = Some rc -> dy_eqb rc c = true
  | PLeaving id _ => id <> []
  | PInit | PClosed _ => True
  end.

(* whose edge of the own cost row it is.  The edge is written one step after the entry of
   s.connections and deleted one step after it, so a session just admitted owns none yet, and
   one between the two halves of removeConnection still owns its own. *)
Definition row_owner (p : phase) (id : bytes) : Prop :=
  match p with
  | PBooked id' _ | PEst id' _ _ | PLeaving id' _ => id' = id
  | _ => False
  end.

(* the content of a slot of the session table, free slots included *)
Definition holding (o : option (binfo * phase)) : option (bytes * dy) :=
  match o with Some (_, p) => holds p | None => None end.

Definition owning (o : option (binfo * phase)) (id : bytes) : Prop :=
  match o with Some (_, p) => row_owner p id | None => False end.

Definition occupies (ss : list (binfo * phase)) (i : nat) : option (bytes * dy) := holding (nth_error ss i).

Lemma occupies_at {ss i bi p} : nth_error ss i = Some (bi, p) -> occupies ss i = holds p.
Proof. unfold occupies. now intros ->. Qed.

Lemma occupies_inv {ss i x} : occupies ss i = Some x -> exists bi p, nth_error ss i = Some (bi, p) /\ holds p = Some x.
Proof. unfold occupies. destruct (nth_error ss i) as [[bi p]|]; [eauto|discriminate]. Qed.

Lemma ok_holds {self bi p id c} : sess_ok self bi p -> holds p = Some (id, c) -> ok_holder self bi id c.
Proof. destruct p; cbn; try discriminate; intros H [= <- <-]; first [exact H | exact (proj1 H)]. Qed.

Lemma owner_holds {p id c x} : holds p = Some (id, c) -> row_owner p x -> id = x.
Proof. destruct p; cbn; try discriminate; try contradiction; now intros [= <- <-]. Qed.

Record inv (self : bytes) (y : sys) : Prop := {
  inv_self : y_self y = self;
  inv_ok : forall i bi p, nth_error (y_sess y) i = Some (bi, p) -> sess_ok self bi p;
  inv_links : links (aget (y_conns y)) (occupies (y_sess y));
  inv_rows : forall id, amem (y_selfrow y) id = true ->
    exists i bi p, nth_error (y_sess y) i = Some (bi, p) /\ row_owner p id
}.

Arguments inv_self {self y} _.
Arguments inv_ok {self y} _ {i bi p} _.
Arguments inv_links {self y} _.

Lemma inv_init self : inv self (sys_init self).
Proof.
  split; cbn; try reflexivity; try discriminate.
  - intros [|i]; discriminate.
  - split; try discriminate; intros [|i]; discriminate.
Qed.

(* Slot i, holding o, is rewritten to (bi, p'), with new maps: what is left to show is that the
   new s.connections fit the new table, that a new edge of the row is session i's, and that
   session i still owns what it owned of the row. *)
Lemma inv_rewrite self y i o bi p' conns' row' ss' :
  inv self y -> nth_error (y_sess y) i = o ->
  rewritten (nth_error (y_sess y)) (nth_error ss') i (Some (bi, p')) ->
  sess_ok self bi p' -> links (aget conns') (occupies ss') ->
  (forall id, amem row' id = true -> amem (y_selfrow y) id = true \/ row_owner p' id) ->
  (forall id, amem row' id = true -> owning o id -> row_owner p' id) ->
  inv self {| y_self := y_self y; y_conns := conns'; y_selfrow := row'; y_sess := ss' |}.
Proof.
  intros [S O L R] Ho [Hi Hoth] Hok HL Hnew Hown. split; cbn [y_self y_conns y_selfrow y_sess].
  - exact S.
  - intros j bj pj Hj. destruct (Nat.eq_dec j i) as [->|Hne].
    + rewrite Hi in Hj. now injection Hj as <- <-.
    + rewrite Hoth in Hj by assumption. eapply O, Hj.
  - exact HL.
  - intros id Hm. destruct (Hnew id Hm) as [Hold|Hmine]; [|now exists i, bi, p'].
    destruct (R id Hold) as (j & bj & pj & Hj & Hj'). destruct (Nat.eq_dec j i) as [->|Hne].
    + exists i, bi, p'. split; [assumption|]. apply (Hown id Hm). rewrite <- Ho, Hj. exact Hj'.
    + exists j, bj, pj. now rewrite Hoth.
Qed.

Lemma inv_keep self y i o bi p' row' ss' :
  inv self y -> nth_error (y_sess y) i = o ->
  rewritten (nth_error (y_sess y)) (nth_error ss') i (Some (bi, p')) ->
  holds p' = holding o -> sess_ok self bi p' ->
  (forall id, amem row' id = true -> amem (y_selfrow y) id = true \/ row_owner p' id) ->
  (forall id, amem row' id = true -> owning o id -> row_owner p' id) ->
  inv self {| y_self := y_self y; y_conns := y_conns y; y_selfrow := row'; y_sess := ss' |}.
Proof.
  intros Inv Ho Hw Hh Hok. eapply inv_rewrite; try eassumption.
  assert (E : occupies (y_sess y) i = holds p') by (unfold occupies; now rewrite Ho).
  eapply links_keep; [apply Inv|]. rewrite E. exact (rewritten_map (fun _ => holding) Hw).
Qed.

(* ... for the slot of an existing session *)
Lemma inv_keep_slot {self y i bi p p' row'} :
  inv self y -> nth_error (y_sess y) i = Some (bi, p) ->
  holds p' = holds p -> sess_ok self bi p' ->
  (forall id, amem row' id = true -> amem (y_selfrow y) id = true \/ row_owner p' id) ->
  (forall id, amem row' id = true -> row_owner p id -> row_owner p' id) ->
  inv self (upd y (y_conns y) row' i bi p').
Proof. intros Inv Hi Hh. exact (inv_keep _ _ _ _ _ _ _ _ Inv Hi (set_nth_rewritten _ Hi) Hh). Qed.

Lemma inv_close {self y i bi} rej :
  inv self y -> nth_error (y_sess y) i = Some (bi, PInit) ->
  inv self (upd y (y_conns y) (y_selfrow y) i bi (PClosed rej)).
Proof.
  intros Inv Hi. apply (inv_keep_slot Inv Hi); [reflexivity | exact I | auto | intros id _ []].
Qed.

(* first half of removeConnection *)
Lemma inv_release {self y i bi p id c} rej :
  inv self y -> nth_error (y_sess y) i = Some (bi, p) -> holds p = Some (id, c) ->
  inv self (upd y (rm id (y_conns y)) (y_selfrow y) i bi (PLeaving id rej)).
Proof.
  intros Inv Hi Hh. destruct (ok_holds (inv_ok Inv Hi) Hh) as [Hne _].
  rewrite rm_nonempty by assumption. pose proof (set_nth_rewritten (bi, PLeaving id rej) Hi) as Hw.
  eapply inv_rewrite; [exact Inv | exact Hi | exact Hw | exact Hne | | auto | intros x _; apply (owner_holds Hh)].
  eapply links_release; [apply Inv | rewrite (occupies_at Hi); exact Hh | exact (rewritten_map (fun _ => holding) Hw) |
                         apply aget_adel_same | intro k; apply aget_adel_other].
Qed.

Lemma est_check_decl {self id c decl ri decl'} :
  est_check self id c decl ri = Some decl' ->
  decl' = decl \/ exists rc, decl' = Some rc /\ dy_eqb rc c = true.
Proof.
  unfold est_check.
  destruct (negb (beq_bytes (ru_fwd ri) id)); [discriminate|].
  destruct (beq_bytes (ru_node ri) id); [|left; congruence].
  destruct (aget _ self) as [r|].
  - destruct (dy_eqb r c) eqn:E; [|discriminate]. intros [= <-]. right. eauto.
  - destruct decl; [discriminate|]. left. congruence.
Qed.

Theorem inv_step self y l : inv self y -> inv self (sys_step repaired y l).
Proof.
  intro Inv. destruct l as [bi|i m|i|i]; cbn [sys_step].
  - (* a session starts in the first free slot, occupying and owning nothing *)
    eapply inv_keep; [exact Inv | apply nth_error_None, le_n | apply snoc_rewritten | | | auto | intros id _ []];
      now destruct (dy_pos (bi_cost bi)).
  - destruct (nth_error (y_sess y) i) as [[bi p]|] eqn:Hi; [|exact Inv].
    pose proof (inv_ok Inv Hi) as Hok.
    destruct p as [|id c|id c|id c decl|id rej|rej]; try exact Inv; destruct m as [ri| |]; try exact Inv.
    + destruct (admissible repaired (y_self y) bi (y_conns y) (ru_fwd ri)) eqn:Ea; [|exact (inv_close _ Inv Hi)].
      apply admissible_spec in Ea as (E1 & E2 & E3 & E4). rewrite (inv_self Inv) in E2.
      (* the admission test and the insertion, in one step *)
      pose proof (set_nth_rewritten (bi, PAdmitted (ru_fwd ri) (cost_for bi (ru_fwd ri))) Hi) as Hw.
      eapply inv_rewrite; [exact Inv | exact Hi | exact Hw | now repeat split | | auto | intros x _ []].
      eapply links_acquire; [apply Inv | exact (occupies_at Hi) | exact E4 | exact (rewritten_map (fun _ => holding) Hw) |
                             now apply aget_app_new | intro k; apply aget_app_other].
    + exact (inv_close _ Inv Hi).
    + destruct (est_check (y_self y) id c decl ri) as [decl'|] eqn:Ec; [|exact (inv_release _ Inv Hi eq_refl)].
      apply (inv_keep_slot Inv Hi); [reflexivity | | auto | auto].
      destruct (est_check_decl Ec) as [->|(rc & -> & Hrc)]; [exact Hok|].
      split; [apply Hok|]. now intros _ [= <-].
    + exact (inv_release _ Inv Hi eq_refl).
  - destruct (nth_error (y_sess y) i) as [[bi p]|] eqn:Hi; [|exact Inv].
    pose proof (inv_ok Inv Hi) as Hok.
    destruct p as [|id c|id c|id c decl|id rej|rej]; try exact Inv.
    + (* knownConnectionCosts[self][id] = c: the new edge is the session's own *)
      apply (inv_keep_slot Inv Hi); [reflexivity | exact Hok | | intros x _ []].
      intro x. apply amem_aset_inv.
    + apply (inv_keep_slot Inv Hi); [reflexivity | | auto | auto].
      split; [exact Hok | discriminate].
    + (* second half of removeConnection: the session's edge goes, the others stay *)
      cbn in Hok. rewrite rm_nonempty by assumption.
      apply (inv_keep_slot Inv Hi); [reflexivity | exact I | |];
        intros x Hx; apply amem_adel_inv in Hx as [Hx Hne]; [now left | cbn; congruence].
  - destruct (nth_error (y_sess y) i) as [[bi p]|] eqn:Hi; [|exact Inv].
    destruct p as [|id c|id c|id c decl|id rej|rej]; try exact Inv.
    + exact (inv_close _ Inv Hi).
    + exact (inv_release _ Inv Hi eq_refl).
    + cbn [v_remove_late repaired]. exact (inv_release _ Inv Hi eq_refl).
    + exact (inv_release _ Inv Hi eq_refl).
Qed.

Theorem reachable_inv {self y} : reachable repaired self y -> inv self y.
Proof.
  intros [ls ->]. unfold sys_run. apply fold_left_invariant; [|apply inv_init]. intros l y _. apply inv_step.
Qed.

Theorem established_only_if_admissible self y id c :
  reachable repaired self y -> aget (y_conns y) id = Some c ->
  id <> [] /\ id <> self /\
  exists i bi p, nth_error (y_sess y) i = Some (bi, p) /\ holds p = Some (id, c) /\
                 allowed bi id = true /\ c = cost_for bi id /\
                 (forall rc, p = PEst id c (Some rc) -> dy_eqb rc c = true) /\
                 (forall j bj pj cj, nth_error (y_sess y) j = Some (bj, pj) -> holds pj = Some (id, cj) -> j = i).
Proof.
  intros Hr Hc. destruct (reachable_inv Hr) as [_ O [A B C] _].
  destruct (C _ _ Hc) as [i Hh]. destruct (occupies_inv Hh) as (bi & p & Hi & Hp).
  pose proof (O _ _ _ Hi) as Hok. destruct (ok_holds Hok Hp) as (H1 & H2 & H3 & H4).
  repeat split; try assumption. exists i, bi, p. repeat split; try assumption.
  - intros rc ->. now apply Hok.
  - intros j bj pj cj Hj Hhj. eapply B; [|exact Hh]. rewrite (occupies_at Hj). exact Hhj.
Qed.

Theorem at_most_one_session_per_id self y i j bi bj p q id c c' :
  reachable repaired self y ->
  nth_error (y_sess y) i = Some (bi, p) -> nth_error (y_sess y) j = Some (bj, q) ->
  holds p = Some (id, c) -> holds q = Some (id, c') -> i = j.
Proof.
  intros Hr Hi Hj Hp Hq. apply (occupied_once (inv_links (reachable_inv Hr)) i j id c c').
  - now rewrite (occupies_at Hi).
  - now rewrite (occupies_at Hj).
Qed.

Theorem rejected_leaves_no_route y i bi ri :
  nth_error (y_sess y) i = Some (bi, PInit) ->
  admissible repaired (y_self y) bi (y_conns y) (ru_fwd ri) = false ->
  let y' := sys_step repaired y (LMsg i (ARoute ri)) in
  y_conns y' = y_conns y /\ y_selfrow y' = y_selfrow y /\
  nth_error (y_sess y') i = Some (bi, PClosed true) /\
  (forall j, j <> i -> nth_error (y_sess y') j = nth_error (y_sess y) j).
Proof.
  intros Hi Ha. cbn [sys_step]. rewrite Hi, Ha. repeat split; apply (set_nth_rewritten (bi, PClosed true) Hi).
Qed.

Theorem no_route_without_connection self y id :
  reachable repaired self y -> quiescent y = true -> amem (y_selfrow y) id = true ->
  exists c i bi decl, aget (y_conns y) id = Some c /\ nth_error (y_sess y) i = Some (bi, PEst id c decl).
Proof.
  intros Hr Hq Hm. destruct (reachable_inv Hr) as [_ _ [A _ _] R].
  destruct (R _ Hm) as (i & bi & p & Hi & Ho).
  unfold quiescent in Hq. rewrite forallb_forall in Hq.
  specialize (Hq _ (nth_error_In _ _ Hi)). cbn [snd] in Hq.
  destruct p as [|id' c|id' c|id' c decl|id' rej|rej]; try contradiction; try discriminate.
  cbn in Ho. subst id'. exists c, i, bi, decl. split; [|assumption].
  apply (A i). now rewrite (occupies_at Hi).
Qed.

(* the peer speaks under another ID, stops listing the local node after having listed it, or
   declares another cost *)
Definition misbehaves (self id : bytes) (c : dy) (decl : option dy) (ri : rupd) : Prop :=
  ru_fwd ri <> id \/
  (ru_fwd ri = id /\ ru_node ri = id /\
   match aget (match ru_conns ri with Some m => m | None => [] end) self with
   | None => decl <> None
   | Some rc => dy_eqb rc c = false
   end).

Lemma misbehaves_check {self id c decl ri} : misbehaves self id c decl ri -> est_check self id c decl ri = None.
Proof.
  unfold misbehaves, est_check. intros [H|(H1 & H2 & H3)].
  - apply beq_false_neq in H. now rewrite H.
  - rewrite H1, H2, !beq_bytes_refl. cbn [negb].
    destruct (aget _ self) as [rc|].
    + now rewrite H3.
    + destruct decl; [reflexivity|contradiction].
Qed.

(* removeConnection(id) by session i, in its two halves: the entry goes with the first, the
   own-row edge with the second *)
Lemma removal_in_two_steps {self y i bi p id c} rej :
  reachable repaired self y -> nth_error (y_sess y) i = Some (bi, p) -> holds p = Some (id, c) ->
  let y1 := upd y (rm id (y_conns y)) (y_selfrow y) i bi (PLeaving id rej) in
  let y2 := sys_step repaired y1 (LFinish i) in
  aget (y_conns y1) id = None /\ nth_error (y_sess y1) i = Some (bi, PLeaving id rej) /\
  y_conns y2 = y_conns y1 /\ aget (y_selfrow y2) id = None /\ nth_error (y_sess y2) i = Some (bi, PClosed rej).
Proof.
  intros Hr Hi Hh y1 y2.
  destruct (ok_holds (inv_ok (reachable_inv Hr) Hi) Hh) as [Hne _].
  assert (H1 : nth_error (y_sess y1) i = Some (bi, PLeaving id rej)) by exact (nth_error_set_nth_same _ Hi).
  subst y2. cbn [sys_step]. rewrite H1. subst y1. cbn [upd y_conns y_selfrow y_sess] in *.
  rewrite !rm_nonempty by assumption. repeat split; try apply aget_adel_same; try assumption.
  exact (nth_error_set_nth_same _ H1).
Qed.

Theorem misbehaving_peer_removed self y i bi id c decl ri :
  reachable repaired self y ->
  nth_error (y_sess y) i = Some (bi, PEst id c decl) ->
  misbehaves (y_self y) id c decl ri ->
  let y1 := sys_step repaired y (LMsg i (ARoute ri)) in
  let y2 := sys_step repaired y1 (LFinish i) in
  aget (y_conns y1) id = None /\ nth_error (y_sess y1) i = Some (bi, PLeaving id true) /\
  aget (y_selfrow y2) id = None /\ nth_error (y_sess y2) i = Some (bi, PClosed true) /\ y_conns y2 = y_conns y1.
Proof.
  intros Hr Hi Hm. cbn zeta. cbn [sys_step]. rewrite Hi, (misbehaves_check Hm).
  destruct (removal_in_two_steps true Hr Hi eq_refl) as (A & B & C & D & F).
  repeat split; assumption.
Qed.

Lemma hangup_holding {y i bi p id c} :
  nth_error (y_sess y) i = Some (bi, p) -> holds p = Some (id, c) ->
  sys_step repaired y (LHangup i) = upd y (rm id (y_conns y)) (y_selfrow y) i bi (PLeaving id false).
Proof.
  intros Hi Hh. cbn [sys_step]. rewrite Hi. now destruct p; try discriminate; injection Hh as -> ->.
Qed.

Theorem forgotten_when_session_ends self y i bi p id c :
  reachable repaired self y ->
  nth_error (y_sess y) i = Some (bi, p) -> holds p = Some (id, c) ->
  let y1 := sys_step repaired y (LHangup i) in
  let y2 := sys_step repaired y1 (LFinish i) in
  aget (y_conns y1) id = None /\ aget (y_conns y2) id = None /\ aget (y_selfrow y2) id = None /\
  nth_error (y_sess y2) i = Some (bi, PClosed false).
Proof.
  intros Hr Hi Hh. cbn zeta. rewrite (hangup_holding Hi Hh).
  destruct (removal_in_two_steps false Hr Hi Hh) as (A & B & C & D & F).
  rewrite C. repeat split; assumption.
Qed.

Theorem no_connection_of_an_ended_session self y :
  reachable repaired self y ->
  (forall id c, aget (y_conns y) id = Some c ->
     exists i bi p, nth_error (y_sess y) i = Some (bi, p) /\ holds p = Some (id, c) /\ ended p = false) /\
  (forall i bi p, nth_error (y_sess y) i = Some (bi, p) -> ended p = true -> holds p = None).
Proof.
  intro Hr. split.
  - intros id c Hc. destruct (listed_occupied (inv_links (reachable_inv Hr)) _ _ Hc) as [i Hh].
    destruct (occupies_inv Hh) as (bi & p & Hi & Hp). exists i, bi, p. repeat split; try assumption.
    now destruct p.
  - intros i bi p _ He. now destruct p.
Qed.

Theorem ending_removes_in_one_step self y i bi p id c :
  reachable repaired self y -> nth_error (y_sess y) i = Some (bi, p) -> holds p = Some (id, c) ->
  let y1 := sys_step repaired y (LHangup i) in
  aget (y_conns y1) id = None /\ exists q, nth_error (y_sess y1) i = Some (bi, q) /\ ended q = true.
Proof.
  intros Hr Hi Hh. split; [apply (forgotten_when_session_ends _ _ _ _ _ _ _ Hr Hi Hh)|].
  cbn zeta. rewrite (hangup_holding Hi Hh). exists (PLeaving id false).
  split; [exact (nth_error_set_nth_same _ Hi) | reflexivity].
Qed.

Definition bi1 : binfo := {| bi_cost := Dy false 1 0; bi_nodecost := []; bi_allowed := None |}.
Definition no_id_update : rupd := ru_zero.            (* what {} or null decode to: ForwardingNode "" *)

(* the repaired code rejects the handshake without node ID *)
Example repaired_rejects_empty_id :
  let y := sys_run repaired (sys_init (str "victim"%string)) [LStart bi1; LMsg 0 (ARoute no_id_update)] in
  y_conns y = [] /\ nth_error (y_sess y) 0 = Some (bi1, PClosed true).
Proof. vm_compute. split; reflexivity. Qed.

Definition alpha_update : rupd :=
  {| ru_node := str "alpha"%string; ru_uid := []; ru_epoch := 1; ru_seq := 1; ru_conns := None;
     ru_fwd := str "alpha"%string; ru_dup := 0 |}.

Example repaired_forgets :
  let y := sys_run repaired (sys_init (str "victim"%string))
             [LStart bi1; LMsg 0 (ARoute alpha_update); LFinish 0; LHangup 0; LFinish 0] in
  y_conns y = [] /\ y_selfrow y = [] /\ nth_error (y_sess y) 0 = Some (bi1, PClosed false).
Proof. vm_compute. repeat split. Qed.

Example race_example :
  let y := sys_run repaired (sys_init (str "victim"%string))
             [LStart bi1; LStart bi1; LStart bi1;
              LMsg 1 (ARoute alpha_update); LMsg 0 (ARoute alpha_update);
              LMsg 2 (ARoute {| ru_node := []; ru_uid := []; ru_epoch := 0; ru_seq := 0; ru_conns := None;
                                ru_fwd := str "beta"%string; ru_dup := 0 |});
              LFinish 2; LFinish 1; LFinish 1; LFinish 2] in
  map fst (y_conns y) = [str "alpha"%string; str "beta"%string] /\ quiescent y = true /\
  nth_error (y_sess y) 0 = Some (bi1, PClosed true).
Proof. vm_compute. repeat split. Qed.

Definition is_some {A} (o : option A) : bool := match o with Some _ => true | None => false end.

Definition sys_of (n : node) (bi : binfo) (p : phase) : sys :=
  {| y_self := n_id n; y_conns := n_conns n; y_selfrow := n_selfrow n; y_sess := [(bi, p)] |}.

Theorem admission_refines_proto_step E n s body j ri :
  s_est s = false -> tok E body = Some j -> decode_routing_update j = JOk ri ->
  let y' := sys_run repaired (sys_of n (s_bi s) PInit) [LMsg 0 (ARoute ri); LFinish 0; LFinish 0] in
  match proto_step E (n, s) (1 :: body) with
  | Cont (n', s') _ =>
    y_conns y' = n_conns n' /\ y_selfrow y' = n_selfrow n' /\
    y_sess y' = [(s_bi s, PEst (s_id s') (s_cost s') None)] /\ s_est s' = true /\ s_rest s' = false
  | Stop n' rej => y_conns y' = n_conns n' /\ y_selfrow y' = n_selfrow n' /\ y_sess y' = [(s_bi s, PClosed rej)]
  | Panic _ => False
  end.
Proof.
  intros He Hj Hd. unfold proto_step, proto_step_gen. rewrite He, Hj, Hd. cbn [N.eqb Pos.eqb].
  unfold sys_run. cbn [fold_left].
  (* the admission step is put in its if-form and decided before the two bookkeeping steps are
     evaluated: evaluating all three first copies the undecided state into every branch *)
  change (sys_step repaired (sys_of n (s_bi s) PInit) (LMsg 0 (ARoute ri)))
    with (let id := ru_fwd ri in
          if admissible repaired (n_id n) (s_bi s) (n_conns n) id
          then upd (sys_of n (s_bi s) PInit) (n_conns n ++ [(id, cost_for (s_bi s) id)]) (n_selfrow n) 0 (s_bi s)
                   (PAdmitted id (cost_for (s_bi s) id))
          else upd (sys_of n (s_bi s) PInit) (n_conns n) (n_selfrow n) 0 (s_bi s) (PClosed true)).
  cbn zeta. destruct (admissible repaired (n_id n) (s_bi s) (n_conns n) (ru_fwd ri)); [|now repeat split].
  unfold establish.
  destruct (add_hash_kept E (set_conns n (n_conns n ++ [(ru_fwd ri, cost_for (s_bi s) (ru_fwd ri))])
               (aset (n_selfrow n) (ru_fwd ri) (cost_for (s_bi s) (ru_fwd ri)))) (ru_fwd ri))
    as (A & B & _).
  rewrite A, B. now repeat split.
Qed.

Theorem est_check_refines_step_route_est E n s ri decl :
  s_rest s = is_some decl ->
  match step_route_est E n s ri, est_check (n_id n) (s_id s) (s_cost s) decl ri with
  | Stop n' rej, None => n' = remove_conn n (s_id s) /\ rej = true
  | Cont (n', s') _, Some decl' =>
    n_conns n' = n_conns n /\ n_selfrow n' = n_selfrow n /\ s_id s' = s_id s /\ s_cost s' = s_cost s /\
    s_rest s' = is_some decl'
  | _, _ => False
  end.
Proof.
  intro Hr. unfold step_route_est, est_check. rewrite (surjective_pairing (handle_ru E n ri)).
  destruct (handle_ru_links E n ri) as [A B].
  destruct (negb (beq_bytes (ru_fwd ri) (s_id s))); [now split|].
  destruct (beq_bytes (ru_node ri) (s_id s)); [|now repeat split].
  destruct (aget _ (n_id n)) as [rc|].
  - destruct (dy_eqb rc (s_cost s)); now repeat split.
  - rewrite Hr. destruct decl; now repeat split.
Qed.

(* what a node with start epoch e says about itself: its own ID and epoch, positive costs, and
   as SuspectedDuplicate either nothing or an epoch LATER than its own (handleRoutingUpdate only
   ever suspects an update whose UpdateEpoch is greater than the local epoch) *)
Definition says_about_itself (id : bytes) (e : N) (ri : rupd) : Prop :=
  ru_node ri = id /\ ru_epoch ri = e /\ (ru_dup ri = 0 \/ e < ru_dup ri) /\ nonpositive_cost ri = false.

Theorem earlier_duplicate_keeps_running E n eb ri :
  n_id n <> [] -> 0 < n_epoch n -> n_epoch n < eb -> n_down n = false ->
  says_about_itself (n_id n) eb ri ->
  n_down (fst (handle_ru E n ri)) = false /\ snd (handle_ru E n ri) = [ENotify eb].
Proof.
  intros Hid H0 Hlt Hd (H1 & H2 & H3 & H4). rewrite (handle_ru_own E n ri H1 Hid H4), H2.
  rewrite !(proj2 (N.eqb_neq _ _)), (proj2 (N.ltb_lt _ _)) by lia. now split.
Qed.

Theorem later_duplicate_shuts_down E n ea ri :
  n_id n <> [] -> ea <> n_epoch n ->
  ru_node ri = n_id n -> ru_epoch ri = ea -> ru_dup ri = n_epoch n -> nonpositive_cost ri = false ->
  n_down (fst (handle_ru E n ri)) = true.
Proof.
  intros Hid Hne H1 H2 H3 H4.
  now rewrite (handle_ru_own E n ri H1 Hid H4), H2, H3, N.eqb_refl, (proj2 (N.eqb_neq _ _) Hne).
Qed.

Theorem split_admission_refuted :
  let id := str "twin"%string in
  let st := split_run (str "victim"%string) bi1 ([], [SInit; SInit]) [SCheck 0 id; SCheck 1 id; SInsert 0; SInsert 1] in
  snd st = [SHolding id (Dy false 1 0); SHolding id (Dy false 1 0)] /\ List.length (fst st) = 1%nat.
Proof. vm_compute. split; reflexivity. Qed.

(* with the test and the insertion in one step (the order the code's single critical section
   allows) the second session is rejected *)
Example split_admission_serialized :
  let id := str "twin"%string in
  snd (split_run (str "victim"%string) bi1 ([], [SInit; SInit]) [SCheck 0 id; SInsert 0; SCheck 1 id; SInsert 1])
  = [SHolding id (Dy false 1 0); SRejected].
Proof. vm_compute. reflexivity. Qed.

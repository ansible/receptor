(* Proofs/AdmitHeld.v — the window of Model/AdmitHeld.v: under the code's admission test a
   registered session owns its entry whatever the schedule; under the lenient test it need not. *)
From Coq Require Import String.
From Receptor Require Import Base.ListFacts Model.AdmitHeld Proofs.Proto Proofs.Admit.

(* what slot i of the table says: the session registered under an ID — alive, or ended with its
   loop still busy — is listed under it as owner *)
Definition registered (i : nat) (o : option hphase) : option (bytes * nat) :=
  match o with Some (HHolding id _) => Some (id, i) | _ => None end.

(* s.connections against the table, as in Proofs/Admit.v, the owner's index being the value listed *)
Definition held_inv (st : list (bytes * nat) * list hphase) : Prop :=
  links (aget (fst st)) (fun i => registered i (nth_error (snd st) i)).

Lemma held_inv_init n : held_inv (held_init n).
Proof.
  assert (H : forall i, registered i (nth_error (repeat HInit n) i) = None).
  { intro i. destruct (nth_error _ i) as [p|] eqn:E; [|reflexivity].
    apply nth_error_In, repeat_spec in E. now subst. }
  split; cbn [held_init fst snd]; intros *; rewrite ?H; discriminate.
Qed.

(* session i's slot, holding p, is overwritten with x *)
Lemma slot_rewritten {ps i p} x : nth_error ps i = Some p ->
  rewritten (fun j => registered j (nth_error ps j)) (fun j => registered j (nth_error (set_nth ps i x) j))
            i (registered i (Some x)).
Proof. intro Hi. exact (rewritten_map registered (set_nth_rewritten x Hi)). Qed.

Lemma held_inv_step st l : held_inv st -> held_inv (held_step false st l).
Proof.
  intro L. destruct st as [conns ps]. unfold held_inv in *. cbn [fst snd] in L.
  destruct l as [i id|i|i]; unfold held_step; cbn [fst snd];
    (destruct (nth_error ps i) as [p|] eqn:Hi; [|exact L]);
    pose proof (f_equal (registered i) Hi) as Hr; cbn [registered] in Hr.
  - destruct p; try exact L. destruct (aget conns id) as [o|] eqn:Hg; cbn [owner_counts fst snd].
    + eapply links_keep; [exact L|]. cbn beta. rewrite Hr. exact (slot_rewritten HRejected Hi).
    + eapply links_acquire; [exact L | exact Hr | exact Hg | exact (slot_rewritten (HHolding id true) Hi) |
                             apply aget_aset_same | intro k; apply aget_aset_other].
  - destruct p as [|id [|]| |]; try exact L. cbn [fst snd].
    eapply links_keep; [exact L|]. cbn beta. rewrite Hr. exact (slot_rewritten (HHolding id false) Hi).
  - destruct p as [|id [|]| |]; try exact L. cbn [fst snd].
    (* the entry deleted is session i's own *)
    eapply links_release; [exact L | exact Hr | exact (slot_rewritten HGone Hi) |
                           apply aget_adel_same | intro k; apply aget_adel_other].
Qed.

Lemma strict_holder_owns_entry n ls i id a :
  let st := held_run false (held_init n) ls in
  nth_error (snd st) i = Some (HHolding id a) -> aget (fst st) id = Some i.
Proof.
  intros st Hi. assert (L : held_inv st).
  { subst st. unfold held_run. apply fold_left_invariant; [|apply held_inv_init]. intros l s _. apply held_inv_step. }
  apply (occupied_listed L i). now rewrite Hi.
Qed.

Lemma lenient_test_refuted :
  let x := str "xray"%string in
  held_run true (held_init 3) [HHs 0 x; HEnd 0; HHs 1 x; HCleanup 0] = ([], [HGone; HHolding x true; HInit]) /\
  held_run true (held_init 3) [HHs 0 x; HEnd 0; HHs 1 x; HCleanup 0; HHs 2 x]
    = ([(x, 2%nat)], [HGone; HHolding x true; HHolding x true]).
Proof. vm_compute. split; reflexivity. Qed.

(* the same schedule under the code's test: the reconnecting session is refused while the ended
   one is still registered, the third one is admitted and listed *)
Lemma strict_same_schedule :
  let x := str "xray"%string in
  held_run false (held_init 3) [HHs 0 x; HEnd 0; HHs 1 x; HCleanup 0; HHs 2 x]
    = ([(x, 2%nat)], [HGone; HRejected; HHolding x true]).
Proof. vm_compute. reflexivity. Qed.

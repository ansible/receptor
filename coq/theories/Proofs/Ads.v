(* Proofs/Ads.v — C18, one node: the handler taken apart once ([handle_ad_at]) and its
   invariants along every history of received messages. *)
From Coq Require Import Lia.
From Receptor Require Import Model.AdsConc.
Open Scope N_scope.

Section Map2.
Context {V : Type}.
Implicit Types m : amap (amap V).

Lemma get2_set2_same n s v m : get2 n s (set2 n s v m) = Some v.
Proof. unfold get2, set2. rewrite aget_aset_same. apply aget_aset_same. Qed.

Lemma get2_set2_other n s v m n' s' : (n', s') <> (n, s) ->
  get2 n' s' (set2 n s v m) = get2 n' s' m.
Proof.
  intro H. unfold get2, set2.
  destruct (N.eq_dec n' n) as [->|Hn].
  - rewrite aget_aset_same. assert (s' <> s) by congruence.
    rewrite aget_aset_other by assumption. destruct (aget n m); reflexivity.
  - rewrite aget_aset_other by assumption. reflexivity.
Qed.

Lemma get2_del2_same n s m : get2 n s (del2 n s m) = None.
Proof.
  unfold get2, del2. destruct (aget n m) as [sm|] eqn:E; [|now rewrite E].
  destruct (adel s sm) as [|p r] eqn:Ed.
  - now rewrite aget_adel_same.
  - rewrite aget_aset_same, <- Ed. apply aget_adel_same.
Qed.

Lemma get2_del2_other n s m n' s' : (n', s') <> (n, s) ->
  get2 n' s' (del2 n s m) = get2 n' s' m.
Proof.
  intro H. unfold get2, del2. destruct (aget n m) as [sm|] eqn:E; [|reflexivity].
  destruct (N.eq_dec n' n) as [->|Hn].
  - assert (Hs : s' <> s) by congruence. rewrite E.
    destruct (adel s sm) as [|p r] eqn:Ed.
    + rewrite aget_adel_same. rewrite <- (aget_adel_other s s' sm Hs), Ed. reflexivity.
    + rewrite aget_aset_same, <- Ed. now apply aget_adel_other.
  - destruct (adel s sm); [now rewrite aget_adel_other|now rewrite aget_aset_other].
Qed.
End Map2.

Definition tomb_of (st : astate) (n s : N) : option N := get2 n s (as_tomb st).

(* the newest time known for (n, s), advertisement or withdrawal *)
Definition know (st : astate) (n s : N) : N :=
  N.max (match listed st n s with Some (t, _) => t | None => 0 end)
        (match tomb_of st n s with Some t => t | None => 0 end).

(* [decide] and [apply_ad] (Model/AdsConc.v) are the test and the effect of [handle_ad]; the
   handler runs both on the same tables, as the code does under serviceAdsLock. *)
Lemma handle_ad_is_decide_apply st a recv :
  handle_ad st a recv = handle_split st st a recv.
Proof.
  unfold handle_ad, handle_split, decide, apply_ad.
  destruct (match get2 (a_node a) (a_svc a) (as_ads st) with Some (t, _) => negb (t <? a_time a) | None => false end);
    [reflexivity|].
  destruct (match get2 (a_node a) (a_svc a) (as_tomb st) with Some t => negb (t <? a_time a) | None => false end);
    reflexivity.
Qed.

Lemma decide_newer st a : decide st a = true <->
  match listed st (a_node a) (a_svc a) with Some (t, _) => t < a_time a | None => True end /\
  match tomb_of st (a_node a) (a_svc a) with Some t => t < a_time a | None => True end.
Proof.
  unfold decide, listed, tomb_of. rewrite andb_true_iff, !negb_true_iff.
  destruct (get2 (a_node a) (a_svc a) (as_ads st)) as [[t b]|], (get2 (a_node a) (a_svc a) (as_tomb st)) as [t'|];
    rewrite ?negb_false_iff, ?N.ltb_lt; intuition.
Qed.

Lemma decide_know st a :
  if decide st a then know st (a_node a) (a_svc a) <= a_time a
  else a_time a <= know st (a_node a) (a_svc a).
Proof.
  destruct (decide st a) eqn:D; [|apply not_true_iff_false in D]; rewrite decide_newer in D; unfold know;
    destruct (listed st (a_node a) (a_svc a)) as [[t b]|], (tomb_of st (a_node a) (a_svc a)); lia.
Qed.

Lemma handle_ad_rejected st a recv : decide st a = false -> handle_ad st a recv = (st, []).
Proof. intro D. rewrite handle_ad_is_decide_apply. unfold handle_split. now rewrite D. Qed.

Definition says (a : ad) (st : astate) : Prop :=
  if a_cancel a
  then listed st (a_node a) (a_svc a) = None /\ tomb_of st (a_node a) (a_svc a) = Some (a_time a)
  else listed st (a_node a) (a_svc a) = Some (a_time a, a_body a) /\ tomb_of st (a_node a) (a_svc a) = None.

Lemma says_know a st : says a st -> know st (a_node a) (a_svc a) = a_time a.
Proof. unfold says, know. destruct (a_cancel a); intros [-> ->]; lia. Qed.

Lemma apply_ad_says st a recv : says a (fst (apply_ad st a recv)).
Proof.
  unfold says, listed, tomb_of, apply_ad. cbn [fst as_ads as_tomb set_ads].
  destruct (a_cancel a).
  - split; [apply get2_del2_same|apply get2_set2_same].
  - split; [apply get2_set2_same|apply get2_del2_same].
Qed.

Lemma apply_ad_other st a recv n s : (n, s) <> (a_node a, a_svc a) ->
  listed (fst (apply_ad st a recv)) n s = listed st n s /\
  tomb_of (fst (apply_ad st a recv)) n s = tomb_of st n s.
Proof.
  intro H. unfold listed, tomb_of, apply_ad. cbn [fst as_ads as_tomb set_ads].
  destruct (a_cancel a).
  - split; [now apply get2_del2_other|now apply get2_set2_other].
  - split; [now apply get2_set2_other|now apply get2_del2_other].
Qed.

Lemma handle_ad_at st a recv n s :
  let st' := fst (handle_ad st a recv) in
  (listed st' n s = listed st n s /\ tomb_of st' n s = tomb_of st n s /\
   (a_node a = n /\ a_svc a = s -> decide st a = false /\ snd (handle_ad st a recv) = []))
  \/
  (a_node a = n /\ a_svc a = s /\ decide st a = true /\ says a st' /\
   snd (handle_ad st a recv) = ad_relays st a recv).
Proof.
  cbv zeta. rewrite handle_ad_is_decide_apply. unfold handle_split.
  destruct (decide st a) eqn:D; [|left; cbn [fst snd]; auto].
  assert (Hkey : a_node a = n /\ a_svc a = s \/ (n, s) <> (a_node a, a_svc a)).
  { destruct (N.eq_dec (a_node a) n), (N.eq_dec (a_svc a) s); [now left|right; congruence..]. }
  destruct Hkey as [[<- <-]|Hne].
  - right. repeat split. apply apply_ad_says.
  - left. destruct (apply_ad_other st a recv n s Hne) as [-> ->].
    split; [reflexivity|]. split; [reflexivity|]. intros [<- <-]. now contradiction Hne.
Qed.

Theorem older_never_replaces_newer st a recv t b :
  listed st (a_node a) (a_svc a) = Some (t, b) -> a_time a <= t ->
  handle_ad st a recv = (st, []).
Proof.
  intros Hl Hle. apply handle_ad_rejected, not_true_iff_false. rewrite decide_newer, Hl.
  intros [H _]. lia.
Qed.

Lemma handle_ad_frame st a recv :
  as_self (fst (handle_ad st a recv)) = as_self st /\ as_conns (fst (handle_ad st a recv)) = as_conns st.
Proof.
  rewrite handle_ad_is_decide_apply. unfold handle_split. destruct (decide st a); split; reflexivity.
Qed.

Theorem ad_relay_never_back st a recv c x :
  In (c, x) (snd (handle_ad st a recv)) -> c <> recv /\ In c (as_conns st) /\ x = a.
Proof.
  rewrite handle_ad_is_decide_apply. unfold handle_split. destruct (decide st a); [|intros []].
  cbn [snd apply_ad]. unfold ad_relays. rewrite in_map_iff. intros [c' [E Hin]]. inversion E; subst.
  apply filter_In in Hin as [Hin Hne]. cbn [as_conns set_ads] in Hin.
  repeat split; auto. intro; subst. rewrite N.eqb_refl in Hne. discriminate.
Qed.

(* what every step allowed by E keeps holds at the end of every history of such steps *)
Lemma run_ads_invariant_on (E : ad * node -> Prop) (P : astate -> Prop) :
  (forall st a r, E (a, r) -> P st -> P (fst (handle_ad st a r))) ->
  forall h st, Forall E h -> P st -> P (run_ads handle_ad st h).
Proof.
  intros Hstep h. induction h as [|[a r] l IH]; intros st Hall H; [exact H|].
  inversion Hall; subst. cbn [run_ads]. apply IH; [assumption|]. now apply Hstep.
Qed.

Lemma run_ads_invariant (P : astate -> Prop) :
  (forall st a r, P st -> P (fst (handle_ad st a r))) ->
  forall h st, P st -> P (run_ads handle_ad st h).
Proof.
  intros Hstep h st. apply (run_ads_invariant_on (fun _ => True)); [auto|]. now apply Forall_forall.
Qed.

(* "the withdrawal with time t1 of (n, s) is known": either it is remembered (with its own or a
   newer time) or the service is listed again with a strictly newer advertisement *)
Definition knows_withdrawn (st : astate) (n s t1 : N) : Prop :=
  (exists t', tomb_of st n s = Some t' /\ t1 <= t') \/
  (exists t b, listed st n s = Some (t, b) /\ t1 < t).

Lemma knows_withdrawn_step st a recv n s t1 :
  knows_withdrawn st n s t1 -> knows_withdrawn (fst (handle_ad st a recv)) n s t1.
Proof.
  intro K. unfold knows_withdrawn.
  destruct (handle_ad_at st a recv n s) as [(-> & -> & _)|(<- & <- & D & S & _)]; [exact K|].
  (* the step concerns this very service: it was accepted, so it is newer than everything *)
  assert (Hnew : t1 < a_time a).
  { apply decide_newer in D as [D1 D2].
    destruct K as [(t' & Ht & Hle)|(t & b & Hl & Hlt)]; [rewrite Ht in D2|rewrite Hl in D1]; lia. }
  unfold says in S. destruct (a_cancel a).
  - left. exists (a_time a). split; [apply S|lia].
  - right. exists (a_time a), (a_body a). split; [apply S|lia].
Qed.

(* no service is both listed and remembered as withdrawn: this is what turns "a withdrawal at
   least as new is remembered" into "not listed" in [withdrawn_not_resurrected] *)
Definition wf (st : astate) : Prop :=
  forall n s, listed st n s = None \/ tomb_of st n s = None.

Lemma wf_init conns : wf (ads_init conns).
Proof. intros n s. left. reflexivity. Qed.

Lemma wf_step st a recv : wf st -> wf (fst (handle_ad st a recv)).
Proof.
  intros W n s.
  destruct (handle_ad_at st a recv n s) as [(-> & -> & _)|(<- & <- & _ & S & _)]; [apply W|].
  unfold says in S. destruct (a_cancel a); [left|right]; apply S.
Qed.

Lemma wf_run h : forall st, wf st -> wf (run_ads handle_ad st h).
Proof. apply run_ads_invariant, wf_step. Qed.

Theorem withdrawn_not_resurrected st a recv h :
  wf st -> a_cancel a = true ->
  match listed st (a_node a) (a_svc a) with Some (t, _) => t < a_time a | None => True end ->
  forall t b, listed (run_ads handle_ad (fst (handle_ad st a recv)) h) (a_node a) (a_svc a) = Some (t, b) ->
  a_time a < t.
Proof.
  intros W Hc Hnewer t b Hl.
  assert (K : knows_withdrawn (fst (handle_ad st a recv)) (a_node a) (a_svc a) (a_time a)).
  { left. rewrite handle_ad_is_decide_apply. unfold handle_split. destruct (decide st a) eqn:D.
    - pose proof (apply_ad_says st a recv) as S. unfold says in S. rewrite Hc in S.
      exists (a_time a). split; [apply S|lia].
    - (* rejected, and not because of what is listed: a withdrawal at least as new is remembered *)
      apply not_true_iff_false in D. rewrite decide_newer in D. cbn [fst].
      destruct (tomb_of st (a_node a) (a_svc a)) as [t'|].
      + exists t'. split; [reflexivity|]. destruct (listed st (a_node a) (a_svc a)) as [[t0 b0]|]; lia.
      + destruct (listed st (a_node a) (a_svc a)) as [[t0 b0]|]; lia. }
  apply (run_ads_invariant (fun st' => knows_withdrawn st' (a_node a) (a_svc a) (a_time a)))
    with (h := h) in K; [|intros; now apply knows_withdrawn_step].
  destruct K as [(t' & Ht & _)|(t2 & b2 & Hl2 & Hlt)].
  - destruct (wf_run h _ (wf_step st a recv W) (a_node a) (a_svc a)); congruence.
  - congruence.
Qed.

Lemma know_step st a recv n s : know st n s <= know (fst (handle_ad st a recv)) n s.
Proof.
  destruct (handle_ad_at st a recv n s) as [(Hl & Ht & _)|(<- & <- & D & S & _)].
  - unfold know. rewrite Hl, Ht. lia.
  - rewrite (says_know _ _ S). pose proof (decide_know st a) as Hk. now rewrite D in Hk.
Qed.

Theorem knowledge_monotone h : forall st n s, know st n s <= know (run_ads handle_ad st h) n s.
Proof.
  intros st n s. apply (run_ads_invariant (fun st' => know st n s <= know st' n s)); [|lia].
  intros st' a r H. pose proof (know_step st' a r n s). lia.
Qed.

(* a message about another service leaves the entry alone *)
Lemma listed_step_other st a r n s : (a_node a, a_svc a) <> (n, s) ->
  listed (fst (handle_ad st a r)) n s = listed st n s.
Proof.
  intro Hne. destruct (handle_ad_at st a r n s) as [(E & _)|(<- & <- & _)]; [exact E|congruence].
Qed.

Definition mk (n s t : N) (c : bool) : ad :=
  {| a_node := n; a_svc := s; a_time := t; a_cancel := c; a_body := 0 |}.

(* on the repaired tree a withdrawal (time 9) then a delayed older advertisement (time 3) stays withdrawn *)
Example fixed_does_not :
  listed (run_ads handle_ad (ads_init [2; 3]) [(mk 5 7 9 true, 2); (mk 5 7 3 false, 3)]) 5 7 = None.
Proof. vm_compute. reflexivity. Qed.

Example fixed_withdrawal_relayed_once :
  let st1 := fst (handle_ad (ads_init [2; 3]) (mk 5 7 9 true) 2) in
  snd (handle_ad (ads_init [2; 3]) (mk 5 7 9 true) 2) = [(3, mk 5 7 9 true)]
  /\ snd (handle_ad st1 (mk 5 7 9 true) 2) = [].
Proof. vm_compute. split; reflexivity. Qed.

Example dead_node_still_listed :
  (* node 5 advertised service 7 and then died: whatever else happens (here: traffic about other
     services), it stays listed *)
  listed (run_ads handle_ad (ads_init [2]) [(mk 5 7 3 false, 2); (mk 6 7 9 false, 2); (mk 6 7 10 true, 2)]) 5 7
  = Some (3, 0).
Proof. vm_compute. reflexivity. Qed.

(* Proofs/AdsConc.v — what the concurrency statements of Props/C18.v (item 8) are about. *)
From Receptor Require Import Model.AdsConc.
Open Scope N_scope.

(* two messages of one owner about one service, the second older *)
Definition ex_new : ad := {| a_node := 5; a_svc := 1; a_time := 9; a_cancel := false; a_body := 2 |}.
Definition ex_old : ad := {| a_node := 5; a_svc := 1; a_time := 4; a_cancel := false; a_body := 1 |}.

(* what the harness's check means: the observation equals the model's result for SOME order of the batch *)
Definition explains (c : conc_ads_case) (p : list (ad * node)) : bool :=
  let st0 := run_ads handle_ad (ads_init (ca_conns c)) (ca_pre c) in
  let '(st, rel) := run_collect st0 p in
  beq_ads (as_ads st) (ca_ads c) && rel_meq rel (ca_relays c).

(* Proofs/AdsWorld.v — C18 convergence: when a node has sent its newest message about a service
   to its neighbours into an otherwise silent mesh and the network has gone quiet again, every
   other node that can be reached lists exactly what that message says — for EVERY delivery order. *)
From Coq Require Import Lia.
From Receptor Require Import Model.AdsWorld Proofs.Ads Proofs.Mesh.
Open Scope N_scope.

Lemma in_ad_msgs self rel m :
  In m (ad_msgs self rel) <-> exists c a, In (c, a) rel /\ m = {| am_from := self; am_to := c; am_ad := a |}.
Proof.
  unfold ad_msgs. rewrite in_map_iff. split.
  - intros [[c a] [E H]]. exists c, a. simpl in E. auto.
  - intros [c [a [H E]]]. exists (c, a). simpl. auto.
Qed.

(* after node st = (am_to m) has handled the k-th message in flight, m *)
Definition awdelivered (w : aworld) (k : nat) (m : amsg) (st st' : astate) (rel : list (node * ad)) :=
  {| aw_nodes := update_nth (N.to_nat (am_to m)) st' (aw_nodes w);
     aw_flight := remove_nth k (aw_flight w) ++ ad_msgs (as_self st) rel |}.

Section Converge.
Variables (n s T : N) (M : ad) (o : node).

Definition iskey (a : ad) : Prop := a_node a = n /\ a_svc a = s.
Definition kn (w : aworld) (i : node) : N :=
  match node_at w i with Some st => know st n s | None => 0 end.

Definition reflects (st : astate) : Prop :=
  if a_cancel M then listed st n s = None /\ tomb_of st n s = Some T
  else listed st n s = Some (T, a_body M) /\ tomb_of st n s = None.

(* The invariant of the flood of M, the message about (n, s) with time T that o has sent.
   K: a message about (n, s) sent by another node is no newer than what its sender knows;
   J: who knows T (or is o) has told each neighbour, unless the neighbour knows T already;
   U: nothing, in a table or in flight, is newer than T;  Q: whatever has time T is M. *)
Record Inv (w : aworld) : Prop := {
  inv_topo : topo_ok w;
  inv_K : forall m, In m (aw_flight w) -> am_from m <> o -> iskey (am_ad m) ->
            a_time (am_ad m) <= kn w (am_from m);
  inv_J : forall v st w0, node_at w v = Some st -> In w0 (as_conns st) -> w0 <> o ->
            (v = o \/ T <= kn w v) ->
            T <= kn w w0 \/
            exists m, In m (aw_flight w) /\ am_from m = v /\ am_to m = w0 /\ iskey (am_ad m)
                      /\ T <= a_time (am_ad m);
  inv_U1 : forall i st, node_at w i = Some st -> know st n s <= T;
  inv_U2 : forall m, In m (aw_flight w) -> iskey (am_ad m) -> a_time (am_ad m) <= T;
  inv_Q1 : forall m, In m (aw_flight w) -> iskey (am_ad m) -> a_time (am_ad m) = T -> am_ad m = M;
  inv_Q2 : forall i st, node_at w i = Some st -> i <> o -> know st n s = T -> reflects st
}.

(* [inv_J] is flooding (Proofs/Mesh.v) of the news "(n, s) at time T or later" *)
Definition informed (w : aworld) (i : node) : Prop := i = o \/ T <= kn w i.
Definition news (m : amsg) : Prop := iskey (am_ad m) /\ T <= a_time (am_ad m).
Definition linked (w : aworld) (v c : node) : Prop :=
  exists st, node_at w v = Some st /\ In c (as_conns st).

Lemma J_passed_on w : Inv w -> passed_on amsg am_from am_to (linked w) news (informed w) (aw_flight w).
Proof.
  intros I v c (st & Hv & Hc) Hh. destruct (N.eq_dec c o) as [->|Hco]; [left; now left|].
  destruct (inv_J w I v st c Hv Hc Hco Hh) as [H|H]; [left; now right|right; exact H].
Qed.

(* In any world satisfying the invariant, once nothing is in flight every node reachable from o,
   other than o itself, lists (n, s) exactly as M says. *)
Theorem ads_converge w u : Inv w -> aw_flight w = [] -> reach w o u -> u <> o ->
  exists st, node_at w u = Some st /\
             listed st n s = if a_cancel M then None else Some (T, a_body M).
Proof.
  intros I Hq Hr Huo.
  assert (Hu : informed w u /\ (u <> o -> exists st, node_at w u = Some st)).
  { clear Huo. induction Hr as [|x u stx Hr [IH _] Hx Hc]; [split; [now left|intro H; now contradiction H]|]. split.
    - apply (passed_on_quiet amsg am_from am_to (linked w) news (informed w) x u); [|exists stx; auto|exact IH].
      rewrite <- Hq. now apply J_passed_on.
    - intros _. destruct (proj2 (inv_topo w I x stx Hx) u Hc) as (stu & Hu & _). eauto. }
  (* u knows T for (n, s), and nothing is newer than T: it knows exactly T, so lists what M says *)
  destruct Hu as [[->|Hge] Hex]; [now contradiction Huo|]. destruct (Hex Huo) as [st Hst].
  exists st. split; [exact Hst|]. unfold kn in Hge. rewrite Hst in Hge.
  pose proof (inv_U1 w I u st Hst) as Hle.
  pose proof (inv_Q2 w I u st Hst Huo (N.le_antisymm _ _ Hle Hge)) as Hrf. unfold reflects in Hrf.
  destruct (a_cancel M); tauto.
Qed.

Hypothesis HM : a_node M = n /\ a_svc M = s /\ a_time M = T.

Lemma informed_dec w i : informed w i \/ ~ informed w i.
Proof.
  unfold informed. destruct (N.eq_dec i o); [auto|].
  destruct (N.le_gt_cases T (kn w i)); [auto|right; lia].
Qed.

Lemma handle_ad_key st a x st' rel : handle_ad st a x = (st', rel) ->
  (know st' n s = know st n s /\ (reflects st -> reflects st') /\
   (iskey a -> a_time a <= know st n s /\ rel = []))
  \/
  (iskey a /\ know st' n s = a_time a /\ (a = M -> reflects st') /\ rel = ad_relays st a x).
Proof.
  intro Eh. pose proof (handle_ad_at st a x n s) as H. rewrite Eh in H. cbn [fst snd] in H.
  destruct H as [(Hl & Ht & Hrej)|(Hn & Hs & _ & S & Hrel)].
  - left. unfold know, reflects. rewrite Hl, Ht. split; [reflexivity|]. split; [auto|].
    intros [Hn Hs]. destruct (Hrej (conj Hn Hs)) as [D Hrel]. split; [|exact Hrel].
    pose proof (decide_know st a) as Hk. now rewrite D, Hn, Hs in Hk.
  - right. split; [now split|]. apply says_know in S as Hk. rewrite Hn, Hs in Hk.
    split; [exact Hk|]. split; [|exact Hrel].
    (* [reflects] is [says M] with n, s, T written for M's node, service and time *)
    intros ->. destruct HM as (HM1 & HM2 & HM3). unfold reflects. rewrite <- HM1, <- HM2, <- HM3. exact S.
Qed.

Section Deliver.
Variables (w : aworld) (k : nat) (m : amsg) (st st' : astate) (rel : list (node * ad)).
Hypothesis I : Inv w.
Hypothesis Em : nth_error (aw_flight w) k = Some m.
Hypothesis Ev : node_at w (am_to m) = Some st.
Hypothesis Eh : handle_ad st (am_ad m) (am_from m) = (st', rel).
Local Notation w' := (awdelivered w k m st st' rel).
Local Notation v := (am_to m).
Local Notation a := (am_ad m).

Lemma node_delivered i : node_at w' i = if i =? v then Some st' else node_at w i.
Proof. apply nth_update_node with (x := st), Ev. Qed.

Lemma node_delivered_cases i sti : node_at w' i = Some sti ->
  (i = v /\ sti = st') \/ (i <> v /\ node_at w i = Some sti).
Proof.
  rewrite node_delivered. destruct (N.eqb_spec i v) as [->|Hi]; [|auto].
  intro E. inversion E. auto.
Qed.

Lemma kn_delivered i : kn w' i = if i =? v then know st' n s else kn w i.
Proof. unfold kn. rewrite node_delivered. destruct (i =? v); reflexivity. Qed.

Lemma kn_receiver : kn w v = know st n s.
Proof. unfold kn. now rewrite Ev. Qed.

Lemma kn_mono i : kn w i <= kn w' i.
Proof.
  rewrite kn_delivered. destruct (N.eqb_spec i v) as [->|_]; [|apply N.le_refl].
  rewrite kn_receiver. pose proof (know_step st a (am_from m) n s) as H. now rewrite Eh in H.
Qed.

Lemma frame_delivered : as_self st' = v /\ as_conns st' = as_conns st.
Proof.
  pose proof (handle_ad_frame st a (am_from m)) as [Hs Hc]. rewrite Eh in Hs, Hc. cbn [fst] in Hs, Hc.
  split; [|exact Hc]. rewrite Hs. apply (inv_topo w I v st Ev).
Qed.

Lemma linked_delivered i c : linked w' i c <-> linked w i c.
Proof.
  unfold linked. setoid_rewrite node_delivered. destruct (N.eqb_spec i v) as [->|_]; [|reflexivity].
  destruct frame_delivered as [_ Hc]. split; intros (sti & E & Hin).
  - inversion E; subst sti. rewrite Hc in Hin. eauto.
  - rewrite Ev in E. inversion E; subst sti. rewrite <- Hc in Hin. eauto.
Qed.

Lemma aflight_delivered m' : In m' (aw_flight w') ->
  In m' (aw_flight w) \/ (am_from m' = v /\ am_ad m' = a /\ In (am_to m', a) rel).
Proof.
  intro Hin. apply in_app_or in Hin as [Hin|Hin]; [left; eapply remove_nth_In, Hin|right].
  apply in_ad_msgs in Hin as (c & a' & Hin & ->). cbn [am_from am_to am_ad].
  pose proof (ad_relay_never_back st a (am_from m) c a') as H. rewrite Eh in H.
  destruct (H Hin) as (_ & _ & ->). split; [apply (inv_topo w I v st Ev)|auto].
Qed.

(* in any case it carries an advertisement that was in flight before *)
Lemma ad_delivered m' : In m' (aw_flight w') -> exists m0, In m0 (aw_flight w) /\ am_ad m' = am_ad m0.
Proof.
  intro Hin. destruct (aflight_delivered m' Hin) as [H|(_ & E & _)]; [eauto|].
  exists m. split; [eapply nth_error_In, Em|exact E].
Qed.

(* stated over the connections of w: they are those of w' ([linked_delivered]) *)
Lemma delivered_J : passed_on amsg am_from am_to (linked w) news (informed w') (aw_flight w').
Proof.
  pose proof (nth_error_In _ _ Em) as Hm. pose proof (handle_ad_key _ _ _ _ _ Eh) as Hkey.
  apply passed_on_deliver with (has := informed w) (m := m).
  - exact Em.
  - apply informed_dec.
  - intros i [->|H]; [now left|right]. pose proof (kn_mono i). lia.
  - intros i Hi [->|H]; [now left|right]. rewrite kn_delivered in H.
    destruct (N.eqb_spec i v); [contradiction|exact H].
  - intros [Hk Hge]. split.
    + destruct (N.eq_dec (am_from m) o) as [Hx|Hx]; [now left|right].
      pose proof (inv_K w I m Hm Hx Hk). lia.
    + right. rewrite kn_delivered, N.eqb_refl.
      destruct Hkey as [(-> & _ & Hrej)|(_ & -> & _)]; [destruct (Hrej Hk); lia|exact Hge].
  - intros Hnot [Hv|Hv]; [contradiction Hnot; now left|].
    rewrite kn_delivered, N.eqb_refl in Hv.
    destruct Hkey as [(E & _)|(Hk & E & _ & Hrel)].
    { contradiction Hnot. right. rewrite kn_receiver, <- E. exact Hv. }
    rewrite E in Hv. split; [now split|]. intros c (stv & Hstv & Hc) Hcx.
    rewrite Ev in Hstv. inversion Hstv; subst stv.
    exists {| am_from := v; am_to := c; am_ad := a |}. cbn [am_from am_to am_ad].
    split; [|split; [reflexivity|split; [reflexivity|exact (conj Hk Hv)]]].
    destruct (inv_topo w I v st Ev) as [-> _]. apply in_ad_msgs. exists c, a. split; [|reflexivity].
    rewrite Hrel. apply in_map_iff. exists c. split; [reflexivity|]. apply filter_In. split; [exact Hc|].
    now apply negb_true_iff, N.eqb_neq.
  - now apply J_passed_on.
Qed.

Lemma delivered_inv : Inv w'.
Proof.
  pose proof (nth_error_In _ _ Em) as Hm. pose proof (handle_ad_key _ _ _ _ _ Eh) as Hkey.
  constructor.
  - intros i sti Hi. split.
    + destruct (node_delivered_cases i sti Hi) as [[-> ->]|[_ Hi0]];
        [apply frame_delivered|apply (inv_topo w I i sti Hi0)].
    + intros c Hc. assert (E : linked w i c) by (apply linked_delivered; exists sti; auto).
      destruct E as (st0 & Hi0 & Hc0). change (linked w' c i).
      apply linked_delivered, (inv_topo w I i st0 Hi0), Hc0.
  - (* K: a relay of a message about (n, s) leaves a node that has just accepted it *)
    intros m' Hin Hfo Hk. destruct (aflight_delivered m' Hin) as [Hold|(Hf & Ha & Hr)].
    + pose proof (inv_K w I m' Hold Hfo Hk). pose proof (kn_mono (am_from m')). lia.
    + rewrite Hf, kn_delivered, N.eqb_refl. rewrite Ha in Hk |- *.
      destruct Hkey as [(_ & _ & Hrej)|(_ & -> & _)]; [|apply N.le_refl].
      destruct (Hrej Hk) as [_ ->]. destruct Hr.
  - intros v0 st0 c Hv0 Hc Hco Hh.
    assert (E : linked w v0 c) by (apply linked_delivered; exists st0; auto).
    destruct (delivered_J v0 c E Hh) as [[->|H]|H]; [contradiction|now left|now right].
  - intros i sti Hi. destruct (node_delivered_cases i sti Hi) as [[_ ->]|[_ Hi0]]; [|exact (inv_U1 w I i sti Hi0)].
    destruct Hkey as [(-> & _)|(Hk & -> & _)]; [exact (inv_U1 w I v st Ev)|exact (inv_U2 w I m Hm Hk)].
  - intros m' Hin. destruct (ad_delivered m' Hin) as (m0 & H0 & ->). exact (inv_U2 w I m0 H0).
  - intros m' Hin. destruct (ad_delivered m' Hin) as (m0 & H0 & ->). exact (inv_Q1 w I m0 H0).
  - (* Q2: the entry is as before, or is what the delivered message says, which is M *)
    intros i sti Hi Hio Hkt.
    destruct (node_delivered_cases i sti Hi) as [[-> ->]|[_ Hi0]]; [|exact (inv_Q2 w I i sti Hi0 Hio Hkt)].
    destruct Hkey as [(E & Hr & _)|(Hk & E & Hr & _)].
    + apply Hr, (inv_Q2 w I v st Ev Hio). congruence.
    + apply Hr, (inv_Q1 w I m Hm Hk). congruence.
Qed.
End Deliver.

(* a message addressed to nobody is dropped; it was no witness of J, whose witnesses go to
   existing nodes *)
Lemma dropped_inv w k m : Inv w -> nth_error (aw_flight w) k = Some m -> node_at w (am_to m) = None ->
  Inv {| aw_nodes := aw_nodes w; aw_flight := remove_nth k (aw_flight w) |}.
Proof.
  intros [Itopo IK IJ IU1 IU2 IQ1 IQ2] Em Ev.
  assert (Hrest : forall x, In x (remove_nth k (aw_flight w)) -> In x (aw_flight w))
    by (intros x; apply remove_nth_In).
  constructor.
  - exact Itopo.
  - intros m0 Hin. exact (IK m0 (Hrest _ Hin)).
  - intros v st w0 Hv Hc Hno Hp.
    destruct (IJ v st w0 Hv Hc Hno Hp) as [Hl|(m0 & Hin & Hf & Ht & Hk)]; [now left|].
    destruct (in_remove_nth _ _ _ _ Em Hin) as [->|Hin']; [|right; eauto].
    destruct (Itopo v st Hv) as [_ Hex]. destruct (Hex w0 Hc) as (st' & Hst' & _). congruence.
  - exact IU1.
  - intros m0 Hin. exact (IU2 m0 (Hrest _ Hin)).
  - intros m0 Hin. exact (IQ1 m0 (Hrest _ Hin)).
  - exact IQ2.
Qed.

Lemma awstep_inv w k w' : Inv w -> awstep w k = Some w' -> Inv w'.
Proof.
  intros I Hstep. unfold awstep in Hstep.
  destruct (nth_error (aw_flight w) k) as [m|] eqn:Em; [|discriminate].
  destruct (node_at w (am_to m)) as [st|] eqn:Ev.
  - destruct (handle_ad st (am_ad m) (am_from m)) as [st' rel] eqn:Eh.
    inversion Hstep. exact (delivered_inv w k m st st' rel I Em Ev Eh).
  - inversion Hstep. exact (dropped_inv w k m I Em Ev).
Qed.

Lemma awrun_inv ks : forall w w', Inv w -> awrun w ks = Some w' -> Inv w'.
Proof.
  induction ks as [|k r IH]; intros w w' I H; simpl in H; [inversion H; subst; exact I|].
  destruct (awstep w k) as [w1|] eqn:E; [|discriminate].
  eapply IH; [|exact H]. eapply awstep_inv; eauto.
Qed.

(* the invariant holds right after o has sent M to all its neighbours, provided M is newer than
   anything any other node knows about (n, s) and nothing else is in flight *)
Lemma originate_inv w sto :
  topo_ok w -> node_at w o = Some sto ->
  aw_flight w = ad_msgs o (map (fun c => (c, M)) (as_conns sto)) ->
  (forall i st, node_at w i = Some st -> know st n s <= T /\ (i <> o -> know st n s < T)) ->
  Inv w.
Proof.
  intros Htopo Ho Hfl Hold. destruct HM as (HM1 & HM2 & HM3).
  assert (Hmsg : forall m, In m (aw_flight w) <->
            exists c, In c (as_conns sto) /\ m = {| am_from := o; am_to := c; am_ad := M |}).
  { intro m. rewrite Hfl. unfold ad_msgs. rewrite map_map, in_map_iff. cbn [fst snd].
    split; intros (c & H1 & H2); eauto. }
  constructor.
  - exact Htopo.
  - intros m Hin Hfo _. apply Hmsg in Hin as (c & _ & ->). contradiction.
  - intros v st c Hv Hc Hno Hp. destruct (N.eq_dec v o) as [->|Hvo].
    + right. rewrite Ho in Hv. inversion Hv; subst st.
      exists {| am_from := o; am_to := c; am_ad := M |}. split; [apply Hmsg; eauto|]. cbn [am_from am_to am_ad].
      split; [reflexivity|]. split; [reflexivity|]. split; [now split|lia].
    + destruct Hp as [Hp|Hge]; [contradiction|].
      unfold kn in Hge. rewrite Hv in Hge. destruct (Hold v st Hv) as [_ Hlt]. specialize (Hlt Hvo). lia.
  - intros i st Hi. apply (Hold i st Hi).
  - intros m Hin _. apply Hmsg in Hin as (c & _ & ->). cbn [am_ad]. lia.
  - intros m Hin _ _. now apply Hmsg in Hin as (c & _ & ->).
  - intros i st Hi Hio Hk. destruct (Hold i st Hi) as [_ Hlt]. specialize (Hlt Hio). lia.
Qed.
End Converge.

(* line 0 — 1 — 2; node 0 has just sent its advertisement of service 7 with timestamp 5 *)
Definition ex_node (i : node) (conns : list node) : astate :=
  {| as_self := i; as_conns := conns; as_ads := []; as_tomb := [] |}.
Definition ex_M : ad := mk 0 7 5 false.
Definition ex_world : aworld :=
  {| aw_nodes := [ex_node 0 [1]; ex_node 1 [0; 2]; ex_node 2 [1]];
     aw_flight := [{| am_from := 0; am_to := 1; am_ad := ex_M |}] |}.

Lemma ex_world_nodes i st : node_at ex_world i = Some st ->
  (i = 0 /\ st = ex_node 0 [1]) \/ (i = 1 /\ st = ex_node 1 [0; 2]) \/ (i = 2 /\ st = ex_node 2 [1]).
Proof.
  unfold node_at, ex_world. cbn [aw_nodes]. intro H.
  destruct (N.to_nat i) as [|[|[|k]]] eqn:E; simpl in H; inversion H; subst.
  - left. split; [lia|reflexivity].
  - right; left. split; [lia|reflexivity].
  - right; right. split; [lia|reflexivity].
  - destruct k; discriminate.
Qed.

Lemma ex_topo : topo_ok ex_world.
Proof.
  intros i st H. destruct (ex_world_nodes i st H) as [[-> ->]|[[-> ->]|[-> ->]]]; (split; [reflexivity|]).
  - intros c [<-|[]]. exists (ex_node 1 [0; 2]). simpl. auto.
  - intros c [<-|[<-|[]]]; [exists (ex_node 0 [1])|exists (ex_node 2 [1])]; simpl; auto.
  - intros c [<-|[]]. exists (ex_node 1 [0; 2]). simpl. auto.
Qed.

Definition ex_HM : a_node ex_M = 0 /\ a_svc ex_M = 7 /\ a_time ex_M = 5 :=
  conj eq_refl (conj eq_refl eq_refl).

Lemma ex_inv : Inv 0 7 5 ex_M 0 ex_world.
Proof.
  apply originate_inv with (sto := ex_node 0 [1]); [exact ex_HM|exact ex_topo|reflexivity..|].
  intros i st H. destruct (ex_world_nodes i st H) as [[-> ->]|[[-> ->]|[-> ->]]]; cbv; split; congruence.
Qed.

(* deliver the two messages; the network is then quiet and node 2 lists the service *)
Example ex_converged :
  exists w', awrun ex_world [0%nat; 0%nat] = Some w' /\ aw_flight w' = [] /\
             exists st, node_at w' 2 = Some st /\ listed st 0 7 = Some (5, 0).
Proof.
  destruct (awrun ex_world [0%nat; 0%nat]) as [w'|] eqn:E; [|discriminate E].
  exists w'. split; [reflexivity|].
  pose proof (awrun_inv 0 7 5 ex_M 0 ex_HM _ _ _ ex_inv E) as I.
  vm_compute in E. inversion E; subst w'; clear E.
  split; [reflexivity|].
  apply (ads_converge 0 7 5 ex_M 0 _ 2 I); [reflexivity| |lia].
  eapply reach_step with (x := 1); [eapply reach_step with (x := 0); [apply reach_refl|reflexivity|]|reflexivity|];
    simpl; auto.
Qed.

(* Proofs/Bridge.v — lemmas about Model/Bridge.v (property C03).  The relay, its cut and the
   acceptor all walk the list of reads in the same way as [stream_of] does (stream_of_cons), so
   each of them is related to the stream by one induction. *)
From Coq Require Import PeanoNat.
From Receptor Require Import Model.Bridge.
Open Scope N_scope.

(* [r_stops r] is [ended (r_stat r)] *)
Definition ended (e : rstat) : bool := match e with ROk => false | _ => true end.

Lemma stream_of_cons r rs :
  stream_of (r :: rs) = (r_data r ++ (if r_stops r then [] else fst (stream_of rs)),
                         if r_stops r then r_stat r else snd (stream_of rs)).
Proof.
  cbn [stream_of]. unfold r_stops.
  destruct (r_stat r), (stream_of rs); cbn [fst snd]; now rewrite ?app_nil_r.
Qed.

Lemma is_prefix_app : forall a b, is_prefix a b = true <-> exists rest, b = a ++ rest.
Proof. exact prefix_bytes_iff. Qed.

(* the check applied to the reads of a stream whose writer ended the whole connection: a reader
   told end-of-stream has every written byte, of a writer that closed; any other reader a prefix *)
Lemma abort_ok_spec : forall written read,
  abort_ok written read = true <->
  match snd (stream_of read) with
  | REof => fst (stream_of read) = writes_of written /\ closes_of written <> 0%nat
  | _ => exists rest, writes_of written = fst (stream_of read) ++ rest
  end.
Proof.
  intros w r. unfold abort_ok. destruct (stream_of r) as [d e]. cbn [fst snd].
  destruct e; try apply is_prefix_app.
  rewrite andb_true_iff, beq_bytes_eq, negb_true_iff, Nat.eqb_neq. reflexivity.
Qed.

Lemma bridge_half_cut : forall rs ws,
  bridge_half rs ws = map (fun r => CWrite (r_data r)) (fst (cut rs ws))
                      ++ (if snd (cut rs ws) then [CClose] else []).
Proof.
  induction rs as [|r rs IH]; intros ws; [reflexivity|]. cbn [bridge_half cut].
  destruct (isnil (r_data r)).
  - destruct (r_stops r); [reflexivity | apply IH].
  - destruct (r_stops r || negb (w_ok match ws with [] => WOk | w :: _ => w end)); [reflexivity|].
    rewrite IH. destruct (cut rs (tl ws)) as [p c]. reflexivity.
Qed.

Lemma writes_of_app : forall a b, writes_of (a ++ b) = writes_of a ++ writes_of b.
Proof. intros. unfold writes_of. apply flat_map_app. Qed.
Lemma closes_of_app : forall a b, closes_of (a ++ b) = (closes_of a + closes_of b)%nat.
Proof. intros. unfold closes_of. rewrite filter_app. apply app_length. Qed.
Lemma writes_of_map : forall p, writes_of (map (fun r => CWrite (r_data r)) p) = data_of p.
Proof. induction p as [|r p IH]; [reflexivity|]. cbn. unfold writes_of in IH. now rewrite IH. Qed.
Lemma closes_of_map : forall p, closes_of (map (fun r => CWrite (r_data r)) p) = 0%nat.
Proof. induction p as [|r p IH]; [reflexivity|]. exact IH. Qed.

(* [cut] tells which reads are relayed and whether the relay then stops: the bytes written to the
   far side are the data of those reads, in order; if it stops (a read error, end of stream or a
   failed write) there is exactly one Close and nothing after it; if the reads just run out it
   stays blocked in Read and there is none *)
Theorem bridge_exact : forall rs ws,
  writes_of (bridge_half rs ws) = data_of (fst (cut rs ws)) /\
  closes_of (bridge_half rs ws) = (if snd (cut rs ws) then 1 else 0)%nat /\
  exists pre, bridge_half rs ws = pre ++ (if snd (cut rs ws) then [CClose] else []) /\ closes_of pre = 0%nat.
Proof.
  intros rs ws. rewrite bridge_half_cut. split; [|split].
  - rewrite writes_of_app, writes_of_map. destruct (snd (cut rs ws)); cbn; now rewrite app_nil_r.
  - rewrite closes_of_app, closes_of_map. now destruct (snd (cut rs ws)).
  - eexists. split; [reflexivity | apply closes_of_map].
Qed.

(* the relayed data is an initial part of the stream; [ws = []]: no write fails *)
Lemma cut_stream : forall rs ws, exists rest,
  fst (stream_of rs) = data_of (fst (cut rs ws)) ++ rest /\
  (ws = [] -> rest = [] /\ snd (cut rs ws) = ended (snd (stream_of rs))).
Proof.
  induction rs as [|r rs IH]; intros ws; [now exists []|].
  rewrite stream_of_cons. cbn [cut fst snd].
  destruct (r_data r) as [|b t] eqn:D; cbn [isnil].
  - destruct (r_stops r) eqn:S; [|exact (IH ws)].
    exists []. repeat split. symmetry. exact S.
  - rewrite <- D. destruct (r_stops r) eqn:S; cbn [orb].
    + exists []. cbn. rewrite !app_nil_r. repeat split. symmetry. exact S.
    + destruct (negb (w_ok match ws with [] => WOk | w :: _ => w end)) eqn:F.
      * (* the write of this read's data fails: the rest of the stream is not relayed *)
        exists (fst (stream_of rs)). cbn. rewrite app_nil_r. split; [reflexivity|].
        intros ->. discriminate F.
      * destruct (IH (tl ws)) as (rest & E & C). destruct (cut rs (tl ws)) as [p c].
        exists rest. cbn [fst snd data_of flat_map] in *.
        split; [rewrite E; apply app_assoc|]. intros ->. now apply C.
Qed.

Theorem relay_is_identity : forall rs,
  writes_of (bridge_half rs []) = fst (stream_of rs) /\
  closes_of (bridge_half rs []) = match snd (stream_of rs) with ROk => 0%nat | _ => 1%nat end.
Proof.
  intros rs. destruct (bridge_exact rs []) as (H1 & H2 & _).
  destruct (cut_stream rs []) as (rest & E & C). destruct (C eq_refl) as [-> C2].
  rewrite H1, H2, E, C2, app_nil_r. split; [reflexivity|]. now destruct (snd (stream_of rs)).
Qed.

(* nothing after the Close *)
Fixpoint wf_calls (cs : list call) : bool :=
  match cs with [] => true | CClose :: r => isnil r | CWrite _ :: r => wf_calls r end.

Lemma wf_bridge_half : forall rs ws, wf_calls (bridge_half rs ws) = true.
Proof.
  induction rs as [|r rs IH]; intros ws; [reflexivity|]. cbn [bridge_half].
  destruct (isnil (r_data r)).
  - destruct (r_stops r); [reflexivity | apply IH].
  - cbn [wf_calls]. destruct (r_stops r || _); [reflexivity | apply IH].
Qed.

(* what the acceptor does depends on the stream only, not on its chunking *)
Lemma accept_stream_spec : forall rs,
  match fst (stream_of rs) with
  | [] => accept_stream rs = Refused
  | b :: d => if b =? 0
              then exists rest, accept_stream rs = Accepted rest /\ stream_of rest = (d, snd (stream_of rs))
              else accept_stream rs = Refused
  end.
Proof.
  induction rs as [|r rs IH]; [reflexivity|]. rewrite stream_of_cons. cbn [accept_stream fst snd].
  destruct (r_data r) as [|b t]; cbn [app].
  - destruct (r_stops r); [reflexivity | exact IH].
  - destruct (b =? 0); [|reflexivity].
    eexists. split; [reflexivity | exact (stream_of_cons (mkrd t (r_stat r)) rs)].
Qed.

Theorem marker_transparent : forall rs d e,
  stream_of rs = (0 :: d, e) -> exists rest, accept_stream rs = Accepted rest /\ stream_of rest = (d, e).
Proof. intros rs d e H. pose proof (accept_stream_spec rs) as A. rewrite H in A. exact A. Qed.

Lemma writes_of_dial : forall app, writes_of (dial_calls app) = 0 :: writes_of app.
Proof. reflexivity. Qed.
Lemma closes_of_dial : forall app, closes_of (dial_calls app) = closes_of app.
Proof. reflexivity. Qed.
Lemma wf_dial : forall app, wf_calls (dial_calls app) = wf_calls app.
Proof. reflexivity. Qed.

Definition eof_if_closed (cs : list call) : rstat := if Nat.eqb (closes_of cs) 0 then ROk else REof.

(* THE hypothesis about quic-go (DESIGN section 8, C03): for every fault schedule [sc] that
   [fair] admits, each direction of a stream delivers exactly the written bytes in order, followed
   by end-of-stream iff the writer closed.  [sched] and [fair] stay abstract; what is meant, and
   sampled by `./check C03`, is a substrate that delivers datagrams intact or not at all, possibly
   duplicated, delayed and reordered, with loss bounded within the idle timeout *)
Definition quic_ok {sched : Type} (fair : sched -> bool) (quic : sched -> list call -> list rd) : Prop :=
  forall sc calls, fair sc = true -> wf_calls calls = true ->
    stream_of (quic sc calls) = (writes_of calls, eof_if_closed calls).

(* the hypothesis is satisfiable: a perfect stream that hands over everything in one read *)
Definition perfect_stream (_ : unit) (cs : list call) : list rd :=
  [mkrd (writes_of cs) (eof_if_closed cs)].
Lemma relay_of_relayed : forall rs rest,
  stream_of rest = (writes_of (bridge_half rs []), eof_if_closed (bridge_half rs [])) ->
  writes_of (bridge_half rest []) = fst (stream_of rs) /\
  closes_of (bridge_half rest []) = (if ended (snd (stream_of rs)) then 1 else 0)%nat.
Proof.
  intros rs rest S. destruct (relay_is_identity rest) as [W C]. rewrite W, C, S. cbn [fst snd].
  destruct (relay_is_identity rs) as [W1 C1]. rewrite W1. split; [reflexivity|].
  unfold eof_if_closed. rewrite C1. now destruct (snd (stream_of rs)).
Qed.

Section EndToEnd.
  Variable sched : Type.
  Variable fair : sched -> bool.
  Variable quic_stream : sched -> list call -> list rd.
  Hypothesis quic_stream_ok : quic_ok fair quic_stream.

  (* application to application, dialler -> acceptor: the acceptor's application reads exactly
     what the dialler's application wrote, then end-of-stream iff it closed; the marker is invisible *)
  Theorem stream_dialler_to_acceptor : forall sc app,
    fair sc = true -> wf_calls app = true ->
    exists rest, accept_stream (quic_stream sc (dial_calls app)) = Accepted rest /\
                 stream_of rest = (writes_of app, eof_if_closed app).
  Proof.
    intros sc app F W. apply marker_transparent.
    rewrite quic_stream_ok by (try assumption; now rewrite wf_dial). reflexivity.
  Qed.

  Theorem stream_acceptor_to_dialler : forall sc app,
    fair sc = true -> wf_calls app = true ->
    stream_of (quic_stream sc app) = (writes_of app, eof_if_closed app).
  Proof. intros. now apply quic_stream_ok. Qed.
End EndToEnd.

Example abort_examples :
  abort_ok [CWrite [1; 2; 3]; CClose] [mkrd [1] ROk; mkrd [] RErr] = true /\
  abort_ok [CWrite [1; 2; 3]; CClose] [mkrd [] RErr] = true /\
  abort_ok [CWrite [1; 2; 3]; CClose] [mkrd [1; 2] ROk; mkrd [3] REof] = true /\
  abort_ok [CWrite [1; 2; 3]; CClose] [mkrd [1] ROk; mkrd [] REof] = false /\
  abort_ok [CWrite [1; 2; 3]; CClose] [mkrd [] REof] = false /\
  abort_ok [CWrite [1; 2; 3]] [mkrd [1; 2; 3] ROk; mkrd [] REof] = false /\
  abort_ok [CWrite [1; 2; 3]; CClose] [mkrd [1; 3] ROk; mkrd [] RErr] = false.
Proof. repeat split; reflexivity. Qed.

(* non-vacuity of the relay theorems: chunks, an empty read, data arriving together with EOF, and
   a write that fails in the middle *)
Example bridge_examples :
  bridge_half [mkrd [1; 2] ROk; mkrd [] ROk; mkrd [3] ROk; mkrd [4; 5] REof; mkrd [6] ROk] []
  = [CWrite [1; 2]; CWrite [3]; CWrite [4; 5]; CClose] /\
  bridge_half [mkrd [1; 2] ROk; mkrd [3] ROk; mkrd [4] ROk] [WOk; WShort]
  = [CWrite [1; 2]; CWrite [3]; CClose] /\
  bridge_half [mkrd [1] ROk; mkrd [] RErr] [] = [CWrite [1]; CClose] /\
  bridge_half [mkrd [1] ROk] [] = [CWrite [1]].
Proof. repeat split; reflexivity. Qed.

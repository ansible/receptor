(* Proofs/Crash.v — property C04 for every crash point of the daemon outside the truncate->write
   windows: invariant of the interleaved histories of daemon and producer, analysis of the cut
   operation, recovery of an intact record, the producer's run to its end, and repeated
   restart cycles. *)
From Coq Require Import PeanoNat Lia.
From Receptor Require Import Base.ListFacts Model.Crash Proofs.Status.
Open Scope N_scope.

(* what an operation, a list of operations, appends to the unit's stdout *)
Definition appended (op : list mstep) : bytes :=
  match op with
  | [MOp (UAppend FStdout b)] => b
  | _ => []
  end.
Definition stdout_of_ops (ops : list (list mstep)) : bytes := flat_map appended ops.

Lemma stdout_of_ops_app a b : stdout_of_ops (a ++ b) = stdout_of_ops a ++ stdout_of_ops b.
Proof. apply flat_map_app. Qed.

Lemma stdout_of_ticks acc chunks rem : stdout_of_ops (ticks acc chunks rem) = concat chunks.
Proof.
  revert acc; induction chunks as [|c r IH]; intro acc; [reflexivity|].
  simpl. now rewrite IH.
Qed.

(* what an operation of [r_prog] before its last can be *)
Inductive rshape : list mstep -> Prop :=
| RS_upd st sz : st_complete st = false -> rshape (upd_op (UBasic st sz))
| RS_out o : o = UOpenCreate FStdout \/ (exists c, o = UAppend FStdout c) -> rshape (fs_op o).

Lemma ticks_shape acc chunks rem op : In op (ticks acc chunks rem) -> rshape op.
Proof.
  revert acc; induction chunks as [|c r IH]; intros acc H; [contradiction|].
  simpl in H. destruct H as [<-|[<-|H]]; [apply RS_out; eauto|now apply RS_upd|now apply (IH _ H)].
Qed.

Definition final_op (sc : scenario) : list mstep :=
  upd_op (UBasic (final_state sc)
                 (if is_remote sc then SzConst (N.of_nat (length (sc_output sc))) else SzStdout)).

Definition r_body (sc : scenario) : list (list mstep) :=
  if is_remote sc then ticks 0 (sc_chunks sc) true
  else upd_op (UBasic S_PENDING (SzConst 0)) :: fs_op (UOpenCreate FStdout) :: ticks 0 (sc_chunks sc) false.

Lemma r_prog_split sc : r_prog sc = r_body sc ++ [final_op sc].
Proof. unfold r_prog, r_body, final_op. destruct (is_remote sc); reflexivity. Qed.

Lemma r_body_shape sc op : In op (r_body sc) -> rshape op.
Proof.
  unfold r_body. destruct (is_remote sc); intro H.
  - now apply (ticks_shape _ _ _ _ H).
  - destruct H as [<-|[<-|H]]; [now apply RS_upd|apply RS_out; auto|now apply (ticks_shape _ _ _ _ H)].
Qed.

Lemma r_body_stdout sc : stdout_of_ops (r_body sc) = sc_output sc.
Proof.
  unfold r_body, sc_output. destruct (is_remote sc); simpl; apply stdout_of_ticks.
Qed.

Lemma r_prog_length sc : length (r_prog sc) = S (length (r_body sc)).
Proof. rewrite r_prog_split, app_length. simpl. lia. Qed.

Lemma r_prog_nth sc m op : nth_error (r_prog sc) m = Some op ->
  (exists o, (o = UOpenCreate FStdout \/ exists c, o = UAppend FStdout c) /\ op = fs_op o /\
             (S m < length (r_prog sc))%nat) \/
  (exists st sz, op = upd_op (UBasic st sz) /\
                 ((S m < length (r_prog sc))%nat -> st_complete st = false) /\
                 (S m = length (r_prog sc) -> op = final_op sc)).
Proof.
  intro H. rewrite r_prog_split in H. rewrite r_prog_length.
  destruct (Nat.lt_ge_cases m (length (r_body sc))) as [Hl|Hl].
  - rewrite nth_error_app1 in H by exact Hl.
    destruct (r_body_shape sc op (nth_error_In _ _ H)) as [st sz Hc|o Ho].
    + right. exists st, sz. split; [reflexivity|]. split; [auto|lia].
    + left. exists o. split; [exact Ho|]. split; [reflexivity|lia].
  - right. rewrite nth_error_app2 in H by exact Hl.
    destruct (m - length (r_body sc))%nat as [|k] eqn:E; [|destruct k; discriminate].
    injection H as <-. eexists _, _. split; [reflexivity|]. split; [lia|reflexivity].
Qed.

Lemma firstn_snoc {A} (l : list A) m x : nth_error l m = Some x -> firstn (S m) l = firstn m l ++ [x].
Proof.
  revert m; induction l as [|y l IH]; intros [|m] H; simpl in *; try discriminate.
  - now inversion H.
  - f_equal. now apply IH.
Qed.

Lemma firstn_r_body sc : firstn (length (r_body sc)) (r_prog sc) = r_body sc.
Proof. rewrite r_prog_split. now apply firstn_app_exact. Qed.

(* The invariant of histories of whole operations, indexed by the numbers of operations the
   daemon (n) and the producer (m) have completed.  From the daemon's second operation (Save) on
   the FILE carries everything: every later rewrite Loads before it Applies ([upd_op_intact]: the
   result does not depend on the record in memory), so [J] speaks of the in-memory records only
   up to Save ([j_mem]) and otherwise of the directory, the record on disk and the output.
   [ext_ok]: the binding of a remote unit is recorded from the daemon's third operation on,
   "started" from its ninth.  [rec_ok]: the record on disk; with [strict] (no relation to the
   [strict] of [MLoad]) it also says that only the producer's last operation records a complete
   state and that the state is Pending until its first — which recovery's own "Failed" breaks, so
   after the restart the invariant is carried on with [strict = false]. *)
Definition ext_ok (sc : scenario) (n : nat) (e : extra) : Prop :=
  match sc_remote sc with
  | None => e = XNone \/ exists pid, e = XCmd pid
  | Some (node, rtype) =>
    exists nd rt ru st, e = XRemote nd rt ru st /\
      ((3 <= n)%nat -> nd = node /\ rt = rtype) /\ (st = true <-> (9 <= n)%nat)
  end.

Record rec_ok (sc : scenario) (strict : bool) (n m : nat) (s : status) : Prop := mkRecOk {
  ro_wtype : s_wtype s = sc_wtype sc;
  ro_ext : ext_ok sc n (s_extra s);
  ro_complete : strict = true -> st_complete (s_state s) = true -> m = length (r_prog sc);
  ro_pending : strict = true -> m = 0%nat -> s_state s = S_PENDING;
  ro_final : m = length (r_prog sc) ->
             s_state s = final_state sc /\ s_size s = N.of_nat (length (sc_output sc))
}.

Record J (sc : scenario) (strict : bool) (g : gstate) : Prop := mkJ {
  j_mem : (g_dn g <= 1)%nat -> g_dmem g = init_status sc;
  j_dir : (1 <= g_dn g)%nat -> uf_dir (g_fs g) = true;
  j_spawn : (1 <= g_rn g)%nat -> (d_spawn sc <= g_dn g)%nat;
  j_bound : (g_rn g <= length (r_prog sc))%nat;
  j_rec : (2 <= g_dn g)%nat ->
          exists s, uf_status (g_fs g) = Some (encode s) /\ rec_ok sc strict (g_dn g) (g_rn g) s;
  j_out : stdout_content (g_fs g) = stdout_of_ops (firstn (g_rn g) (r_prog sc))
}.
Arguments ro_wtype {sc strict n m s}.
Arguments ro_ext {sc strict n m s}.
Arguments ro_complete {sc strict n m s}.
Arguments ro_pending {sc strict n m s}.
Arguments ro_final {sc strict n m s}.
Arguments j_mem {sc strict g}.
Arguments j_dir {sc strict g}.
Arguments j_spawn {sc strict g}.
Arguments j_bound {sc strict g}.
Arguments j_rec {sc strict g}.
Arguments j_out {sc strict g}.

Lemma rec_ok_weaken sc n m s : rec_ok sc true n m s -> rec_ok sc false n m s.
Proof. intros [R1 R2 R3 R4 R5]. constructor; auto; discriminate. Qed.

Lemma J0 sc strict : J sc strict (g0 sc).
Proof.
  constructor; simpl; intros; try lia; try reflexivity.
Qed.

Lemma r_prog_pos sc : (1 <= length (r_prog sc))%nat.
Proof. rewrite r_prog_length. lia. Qed.

Lemma d_spawn_ge sc : (8 <= d_spawn sc)%nat.
Proof. unfold d_spawn. destruct (is_remote sc); lia. Qed.

Section Local.
Variable sc : scenario.
Hypothesis Hloc : sc_remote sc = None.

Lemma L_rem : is_remote sc = false.
Proof. unfold is_remote. now rewrite Hloc. Qed.

Lemma L_sp8 : d_spawn sc = 8%nat.
Proof. unfold d_spawn. now rewrite L_rem. Qed.
End Local.

Lemma d_spawn_remote sc : is_remote sc = true -> d_spawn sc = 9%nat.
Proof. unfold d_spawn. now intros ->. Qed.

(* [mkJ] from the daemon's second operation on: the in-memory records are no longer mentioned *)
Lemma J_next sc strict x r dm rm dn rn da ra :
  (2 <= dn)%nat -> (rn <= length (r_prog sc))%nat -> ((1 <= rn)%nat -> (d_spawn sc <= dn)%nat) ->
  uf_dir x = true -> uf_status x = Some (encode r) -> rec_ok sc strict dn rn r ->
  stdout_content x = stdout_of_ops (firstn rn (r_prog sc)) ->
  J sc strict (mkG x dm rm dn rn da ra).
Proof.
  intros Hn Hb Hsp Hd Hs Hr Ho. constructor; cbn [g_dn g_rn g_fs g_dmem]; auto; try lia.
  intros _. now exists r.
Qed.

(* The daemon's rewrites by their place n in [d_prog]: "Pending" between the third operation and
   the start of the producer; pid and its clearing for a local unit; for a remote one the binding
   at 2, the remote unit ID at 7, "started" at 8. *)
Inductive dupd_ok (sc : scenario) (n : nat) : upd -> Prop :=
| DU_pending : (3 <= n)%nat -> (S (S n) <= d_spawn sc)%nat -> dupd_ok sc n (UBasic S_PENDING (SzConst 0))
| DU_pid pid : sc_remote sc = None -> dupd_ok sc n (USetPid pid)
| DU_clear : sc_remote sc = None -> dupd_ok sc n UClearExtra
| DU_bind node rtype : sc_remote sc = Some (node, rtype) -> n = 2%nat -> dupd_ok sc n (URemoteBind node rtype)
| DU_runit id : sc_remote sc <> None -> n = 7%nat -> dupd_ok sc n (URemoteUnit id)
| DU_started : sc_remote sc <> None -> n = 8%nat -> dupd_ok sc n URemoteStarted.

(* an unchanged binding stays right up to n = 7: "started" must be false before the ninth operation *)
Lemma ext_ok_step sc n e :
  ext_ok sc n e -> (sc_remote sc <> None -> (3 <= n <= 7)%nat) -> ext_ok sc (S n) e.
Proof.
  unfold ext_ok. destruct (sc_remote sc) as [[node rtype]|]; [|auto].
  intros [nd [rt [ru [st [E [B S]]]]]] H. specialize (H ltac:(discriminate)).
  exists nd, rt, ru, st. split; [exact E|]. split; [intro; apply B; lia|rewrite S; lia].
Qed.

Lemma ext_ok_upd sc n x f s :
  dupd_ok sc n f -> ext_ok sc n (s_extra s) -> ext_ok sc (S n) (s_extra (apply_upd x f s)).
Proof.
  intros Hf H. unfold ext_ok in *. destruct (sc_remote sc) as [[node rtype]|] eqn:Er.
  - (* remote work: each update keeps or sets what the new n asks for *)
    destruct H as [nd [rt [ru [st [E [B S]]]]]].
    assert (Hsp9 : d_spawn sc = 9%nat) by (unfold d_spawn, is_remote; now rewrite Er).
    destruct Hf as [H3 Hsp|pid Hl|Hl|node' rtype' Hr ->|id _ ->|_ ->]; try congruence;
      cbn [apply_upd s_extra]; rewrite E.
    + exists nd, rt, ru, st. split; [reflexivity|]. split; [intro; apply B; lia|rewrite S; lia].
    + rewrite Er in Hr. injection Hr as <- <-. exists node, rtype, ru, st.
      split; [reflexivity|]. split; [auto|rewrite S; lia].
    + exists nd, rt, id, st. split; [reflexivity|]. split; [intro; apply B; lia|rewrite S; lia].
    + exists nd, rt, ru, true. split; [reflexivity|]. split; [intro; apply B; lia|]. split; [lia|reflexivity].
  - (* a local command: no binding, the extra data is the pid or nothing *)
    destruct Hf as [H3 Hsp|pid Hl|Hl|node' rtype' Hr ->|id Hr ->|Hr ->]; try congruence;
      cbn [apply_upd s_extra]; [exact H|right; now exists pid|now left].
Qed.

(* the record that Save writes *)
Lemma rec_ok_init sc strict : rec_ok sc strict 2 0 (init_status sc).
Proof.
  pose proof (r_prog_pos sc) as Hp.
  constructor; unfold init_status; cbn [s_wtype s_extra s_state s_size]; try reflexivity; try discriminate; try lia.
  unfold ext_ok, is_remote. destruct (sc_remote sc) as [[node rtype]|].
  - exists [], [], [], false. split; [reflexivity|]. split; [lia|]. split; [discriminate|lia].
  - right. now exists 0.
Qed.

Lemma rec_ok_dstep sc strict n m s :
  rec_ok sc strict n m s -> (sc_remote sc <> None -> (3 <= n <= 7)%nat) -> rec_ok sc strict (S n) m s.
Proof. intros [R1 R2 R3 R4 R5] H. constructor; auto using ext_ok_step. Qed.

(* a rewrite by the daemon: of its updates only "Pending, size 0" touches state and size, and it
   comes before the producer exists *)
Lemma rec_ok_dupd sc strict n m x f s :
  dupd_ok sc n f -> ((S n <= d_spawn sc)%nat -> m = 0%nat) ->
  rec_ok sc strict n m s -> rec_ok sc strict (S n) m (apply_upd x f s).
Proof.
  intros Hf Hm0 [R1 R2 R3 R4 R5]. pose proof (r_prog_pos sc) as Hp. constructor.
  - now rewrite apply_upd_wtype.
  - now apply ext_ok_upd.
  - destruct Hf; cbn [apply_upd s_state]; auto. discriminate.
  - destruct Hf; cbn [apply_upd s_state]; auto.
  - destruct Hf; cbn [apply_upd s_state s_size]; auto. intro Hm. specialize (Hm0 ltac:(lia)). lia.
Qed.

Lemma uapply_stdin x o : o = UOpenCreate FStdin \/ (exists b, o = UAppend FStdin b) ->
  uf_dir (uapply x o) = uf_dir x /\ uf_status (uapply x o) = uf_status x /\
  uf_stdout (uapply x o) = uf_stdout x.
Proof.
  intros [->|[b ->]]; unfold uapply; cbn [uget]; destruct (uf_stdin x); auto.
Qed.

Lemma uapply_stdout x o : o = UOpenCreate FStdout \/ (exists c, o = UAppend FStdout c) ->
  uf_dir (uapply x o) = uf_dir x /\ uf_status (uapply x o) = uf_status x /\
  stdout_content (uapply x o) = stdout_content x ++ appended (fs_op o).
Proof.
  intros [->|[c ->]]; unfold uapply, stdout_content, fs_op; cbn [uget appended];
    destruct (uf_stdout x) eqn:E; cbn [uset uf_dir uf_status uf_stdout]; rewrite ?E, ?app_nil_r; auto.
Qed.

(* what the n-th operation of [d_prog] can be ([d_prog_nth]) *)
Inductive dshape (sc : scenario) (n : nat) : list mstep -> Prop :=
| DS_mkdir : n = 0%nat -> dshape sc n (fs_op UMkdir)
| DS_save : n = 1%nat -> dshape sc n save_op
| DS_stdin o : (2 <= n)%nat -> (sc_remote sc <> None -> (3 <= n <= 6)%nat) ->
               (o = UOpenCreate FStdin \/ exists b, o = UAppend FStdin b) -> dshape sc n (fs_op o)
| DS_spawn : (2 <= n)%nat -> sc_remote sc = None -> dshape sc n []
| DS_upd f : (2 <= n)%nat -> dupd_ok sc n f -> dshape sc n (upd_op f).

Lemma d_prog_nth sc n op : nth_error (d_prog sc) n = Some op -> dshape sc n op.
Proof.
  unfold d_prog. destruct (sc_remote sc) as [[node rtype]|] eqn:Er; intro H.
  - assert (Hsp : d_spawn sc = 9%nat) by (unfold d_spawn, is_remote; now rewrite Er).
    assert (Hne : sc_remote sc <> None) by (rewrite Er; discriminate).
    destruct n as [|[|[|[|[|[|[|n]]]]]]]; [injection H as <-..|].
    + now constructor.
    + now constructor.
    + apply DS_upd; [lia|]. now apply DU_bind.
    + apply DS_stdin; [lia|lia|now left].
    + apply DS_upd; [lia|]. apply DU_pending; lia.
    + apply DS_stdin; [lia|lia|right; eauto].
    + apply DS_upd; [lia|]. apply DU_pending; lia.
    + simpl in H. destruct (sc_reach sc); simpl in H.
      * destruct n as [|[|n]]; [injection H as <-..|].
        -- apply DS_upd; [lia|]. now apply DU_runit.
        -- apply DS_upd; [lia|]. now apply DU_started.
        -- destruct n; discriminate.
      * destruct n; discriminate.
  - pose proof (L_sp8 sc Er) as Hsp.
    destruct n as [|[|[|[|[|[|[|[|[|[|n]]]]]]]]]]; [injection H as <-..|].
    + now constructor.
    + now constructor.
    + apply DS_stdin; [lia|congruence|now left].
    + apply DS_upd; [lia|]. apply DU_pending; lia.
    + apply DS_stdin; [lia|congruence|right; eauto].
    + apply DS_upd; [lia|]. apply DU_pending; lia.
    + apply DS_upd; [lia|]. apply DU_pending; lia.
    + apply DS_spawn; [lia|exact Er].
    + apply DS_upd; [lia|]. now apply DU_pid.
    + apply DS_upd; [lia|]. now apply DU_clear.
    + destruct n; discriminate.
Qed.

Lemma d_next_nth sc g op : d_next sc g = Some op -> nth_error (d_prog sc) (g_dn g) = Some op.
Proof.
  unfold d_next. destruct (negb (g_dalive g)); [discriminate|].
  destruct (is_remote sc); [auto|].
  destruct (Nat.eqb (g_dn g) d_wait && g_ralive g && negb (r_finished sc g)); [discriminate|auto].
Qed.

Lemma J_gstep_d sc strict g : J sc strict g -> J sc strict (gstep sc g true).
Proof.
  intro HJ. unfold gstep. destruct (d_next sc g) as [op|] eqn:E; [|exact HJ].
  apply d_next_nth, d_prog_nth in E.
  pose proof (d_spawn_ge sc) as Hge. pose proof (r_prog_pos sc) as Hp.
  pose proof (j_spawn HJ) as Hsp. pose proof (j_bound HJ) as Hb.
  assert (Hother : forall x', (2 <= g_dn g)%nat -> (sc_remote sc <> None -> (3 <= g_dn g <= 6)%nat) ->
            uf_dir x' = uf_dir (g_fs g) -> uf_status x' = uf_status (g_fs g) ->
            uf_stdout x' = uf_stdout (g_fs g) ->
            J sc strict (mkG x' (g_dmem g) (g_rmem g) (S (g_dn g)) (g_rn g) (g_dalive g) (g_ralive g))).
  { intros x' Hn Hrem Hd Hs Ho. destruct (j_rec HJ Hn) as [s [Es R]].
    apply J_next with (r := s); [lia|lia|lia| | | |].
    - rewrite Hd. apply (j_dir HJ). lia.
    - now rewrite Hs.
    - apply rec_ok_dstep; [exact R|]. intro H. specialize (Hrem H). lia.
    - unfold stdout_content. rewrite Ho. exact (j_out HJ). }
  destruct E as [Hn|Hn|o Hn Hrem Ho|Hn Hloc|f Hn Hf].
  - (* Mkdir: of the fields of [J] at n = 1 there remain the in-memory record, the directory, the output *)
    rewrite fs_op_run. cbn [p_fs p_mem].
    constructor; cbn [g_dn g_rn g_fs g_dmem]; rewrite ?Hn; try lia.
    + intros _. apply (j_mem HJ). lia.
    + intros _. reflexivity.
    + exact (j_out HJ).
  - (* Save: the record is the initial one *)
    rewrite save_op_run, (j_mem HJ) by lia. cbn [p_fs p_mem].
    apply J_next with (r := init_status sc); [lia|lia|lia| |reflexivity| |].
    + apply (j_dir HJ). lia.
    + destruct (g_rn g); [rewrite Hn; apply rec_ok_init|lia].
    + exact (j_out HJ).
  - rewrite fs_op_run. cbn [p_fs p_mem].
    destruct (uapply_stdin (g_fs g) o Ho) as [Hd [Hs Hout]]. now apply Hother.
  - (* the runner is started: no step *)
    unfold exec_steps. cbn [fold_left p_fs p_mem]. apply Hother; auto. congruence.
  - destruct (j_rec HJ Hn) as [s [Hs R]]. rewrite (upd_op_intact _ _ f s Hs). cbn [p_fs p_mem].
    apply J_next with (r := apply_upd (g_fs g) f s); [lia|lia|lia| |reflexivity| |].
    + apply (j_dir HJ). lia.
    + apply rec_ok_dupd; [exact Hf| |exact R]. intro H.
      destruct (g_rn g) eqn:Em; [reflexivity|lia].
    + exact (j_out HJ).
Qed.

Lemma r_next_nth sc g op : r_next sc g = Some op ->
  (d_spawn sc <= g_dn g)%nat /\ nth_error (r_prog sc) (g_rn g) = Some op.
Proof.
  unfold r_next, r_spawned. destruct (Nat.leb (d_spawn sc) (g_dn g)) eqn:E; [|discriminate].
  apply Nat.leb_le in E. cbn [negb].
  destruct (is_remote sc); [destruct (g_dalive g)|destruct (g_ralive g)]; try discriminate; auto.
Qed.

Lemma stdout_snoc sc m op : nth_error (r_prog sc) m = Some op ->
  stdout_of_ops (firstn (S m) (r_prog sc)) = stdout_of_ops (firstn m (r_prog sc)) ++ appended op.
Proof.
  intro H. rewrite (firstn_snoc _ _ _ H), stdout_of_ops_app. unfold stdout_of_ops at 3. simpl.
  now rewrite app_nil_r.
Qed.

Lemma rec_ok_rstep sc strict n m s :
  rec_ok sc strict n m s -> (S m < length (r_prog sc))%nat -> rec_ok sc strict n (S m) s.
Proof.
  intros [R1 R2 R3 R4 R5] H. constructor; auto; try lia.
  intros Hst Hc. specialize (R3 Hst Hc). lia.
Qed.

Lemma rec_ok_rupd sc strict n m x st sz s :
  rec_ok sc strict n m s ->
  ((S m < length (r_prog sc))%nat -> st_complete st = false) ->
  (S m = length (r_prog sc) -> st = final_state sc /\
     s_size (apply_upd x (UBasic st sz) s) = N.of_nat (length (sc_output sc))) ->
  (S m <= length (r_prog sc))%nat ->
  rec_ok sc strict n (S m) (apply_upd x (UBasic st sz) s).
Proof.
  intros [R1 R2 R3 R4 R5] Hlt Heq Hle. constructor; [exact R1|exact R2| | |].
  - intros _ Hc. destruct (Nat.eq_dec (S m) (length (r_prog sc))) as [E|E]; [exact E|].
    cbn [apply_upd s_state] in Hc. rewrite Hlt in Hc by lia. discriminate.
  - intros _ H. discriminate H.
  - intro H. destruct (Heq H) as [-> Hz]. split; [reflexivity|exact Hz].
Qed.

Lemma J_gstep_r sc strict g : J sc strict g -> J sc strict (gstep sc g false).
Proof.
  intro HJ. unfold gstep. destruct (r_next sc g) as [op|] eqn:E; [|exact HJ].
  apply r_next_nth in E as [Hsp Hnth]. pose proof (d_spawn_ge sc) as Hge.
  pose proof (nth_error_lt _ _ _ Hnth) as Hlt.
  destruct (j_rec HJ ltac:(lia)) as [s [Hs R]].
  pose proof (stdout_snoc _ _ _ Hnth) as Hout. rewrite <- (j_out HJ) in Hout.
  (* whichever process executes the operation, with whichever record in memory *)
  assert (Hgoal : forall mem dm' rm' da ra,
             J sc strict (mkG (p_fs (exec_steps (mkP (g_fs g) mem false) op)) dm' rm'
                              (g_dn g) (S (g_rn g)) da ra)).
  { intros mem dm' rm' da ra.
    destruct (r_prog_nth _ _ _ Hnth) as [[o [Ho [-> Hl]]]|[st [sz [-> [Hc Hf]]]]].
    - destruct (uapply_stdout (g_fs g) o Ho) as [Hd [Hst Ho']].
      rewrite fs_op_run. cbn [p_fs].
      apply J_next with (r := s); [lia|lia|lia| | | |].
      + rewrite Hd. apply (j_dir HJ). lia.
      + now rewrite Hst.
      + now apply rec_ok_rstep.
      + now rewrite Ho', Hout.
    - (* the last rewrite records the size of the whole output *)
      rewrite (upd_op_intact _ _ _ s Hs). cbn [p_fs].
      apply J_next with (r := apply_upd (g_fs g) (UBasic st sz) s); [lia|lia|lia| |reflexivity| |].
      + apply (j_dir HJ). lia.
      + apply rec_ok_rupd; [exact R|exact Hc| |lia]. intro Hl. specialize (Hf Hl).
        unfold final_op in Hf. injection Hf as -> ->. split; [reflexivity|].
        destruct (is_remote sc); [reflexivity|]. cbn [apply_upd s_size]. unfold stdout_size.
        rewrite (j_out HJ). rewrite r_prog_length in Hl. injection Hl as ->.
        now rewrite firstn_r_body, r_body_stdout.
      + rewrite Hout. cbn [with_status stdout_content uf_stdout appended]. now rewrite app_nil_r. }
  destruct (is_remote sc); apply Hgoal.
Qed.

Lemma J_gstep sc strict g who : J sc strict g -> J sc strict (gstep sc g who).
Proof. destruct who; [apply J_gstep_d|apply J_gstep_r]. Qed.

Lemma grun_cons sc g w r : grun sc g (w :: r) = grun sc (gstep sc g w) r.
Proof. reflexivity. Qed.

Lemma J_grun sc strict sched g : J sc strict g -> J sc strict (grun sc g sched).
Proof. apply fold_left_invariant. intros w g' _. apply J_gstep. Qed.

Lemma gstep_flags sc g w :
  g_dalive (gstep sc g w) = g_dalive g /\ g_ralive (gstep sc g w) = g_ralive g.
Proof.
  unfold gstep. destruct w.
  - destruct (d_next sc g); auto.
  - destruct (r_next sc g); auto. destruct (is_remote sc); auto.
Qed.

Lemma grun_ralive sc sched g : g_ralive (grun sc g sched) = g_ralive g.
Proof.
  apply (fold_left_invariant (gstep sc) (fun g' => g_ralive g' = g_ralive g)); [|reflexivity].
  intros w g' _ A. now rewrite (proj2 (gstep_flags sc g' w)).
Qed.

Lemma gstep_dn sc g w : (g_dn g <= g_dn (gstep sc g w))%nat.
Proof.
  unfold gstep. destruct w.
  - destruct (d_next sc g); simpl; lia.
  - destruct (r_next sc g); [destruct (is_remote sc)|]; simpl; lia.
Qed.

Lemma gstep_r_idle sc g : r_next sc g = None -> gstep sc g false = g.
Proof. intro H. unfold gstep. now rewrite H. Qed.

Lemma gstep_r_progress sc g op : r_next sc g = Some op ->
  g_dn (gstep sc g false) = g_dn g /\ g_rn (gstep sc g false) = S (g_rn g).
Proof. intro H. unfold gstep. rewrite H. destruct (is_remote sc); auto. Qed.

Lemma gstep_r_dn sc g : g_dn (gstep sc g false) = g_dn g.
Proof.
  destruct (r_next sc g) as [op|] eqn:E.
  - apply (gstep_r_progress _ _ _ E).
  - now rewrite (gstep_r_idle _ _ E).
Qed.

Lemma grun_r_inv sc (P : gstate -> Prop) k g :
  (forall g', P g' -> P (gstep sc g' false)) -> P g -> P (grun sc g (repeat false k)).
Proof.
  intro H. apply fold_left_invariant. intros w g' Hw. apply repeat_spec in Hw. subst w. apply H.
Qed.

Lemma grun_r_idle sc g k : r_next sc g = None -> grun sc g (repeat false k) = g.
Proof.
  intro H. apply (grun_r_inv sc (fun g' => g' = g)); [|reflexivity]. intros g' ->. apply gstep_r_idle, H.
Qed.

Lemma grun_r_dn sc k g : g_dn (grun sc g (repeat false k)) = g_dn g.
Proof.
  apply (grun_r_inv sc (fun g' => g_dn g' = g_dn g)); [|reflexivity]. intros g' <-. apply gstep_r_dn.
Qed.

Definition r_enabled (sc : scenario) (g : gstate) : Prop :=
  r_spawned sc g = true /\ (if is_remote sc then g_dalive g = true else g_ralive g = true).

Lemma r_next_some sc g : r_enabled sc g -> (g_rn g < length (r_prog sc))%nat ->
  exists op, r_next sc g = Some op.
Proof.
  intros [Hs Ha] Hl. unfold r_next. rewrite Hs. cbn [negb].
  destruct (nth_error (r_prog sc) (g_rn g)) as [op|] eqn:E.
  - exists op. destruct (is_remote sc); now rewrite Ha.
  - apply nth_error_None in E. lia.
Qed.

Lemma r_next_unspawned sc g : r_spawned sc g = false -> r_next sc g = None.
Proof. intro H. unfold r_next. now rewrite H. Qed.

Lemma r_next_finished sc g : g_rn g = length (r_prog sc) -> r_next sc g = None.
Proof.
  intro H. unfold r_next. destruct (negb (r_spawned sc g)); [reflexivity|].
  assert (E : nth_error (r_prog sc) (g_rn g) = None) by (apply nth_error_None; lia).
  rewrite E. now destruct (is_remote sc), (g_dalive g), (g_ralive g).
Qed.

Lemma r_enabled_step sc g : r_enabled sc g -> r_enabled sc (gstep sc g false).
Proof.
  intros [Hs Ha]. destruct (gstep_flags sc g false) as [A B]. split.
  - unfold r_spawned. now rewrite gstep_r_dn.
  - destruct (is_remote sc); congruence.
Qed.

Lemma grun_r_complete sc k : forall g,
  r_enabled sc g -> (g_rn g <= length (r_prog sc))%nat -> (length (r_prog sc) - g_rn g <= k)%nat ->
  g_rn (grun sc g (repeat false k)) = length (r_prog sc).
Proof.
  induction k as [|k IH]; intros g He Hb Hk; [simpl; lia|].
  change (repeat false (S k)) with (false :: repeat false k). rewrite grun_cons.
  destruct (Nat.eq_dec (g_rn g) (length (r_prog sc))) as [Heq|Hne].
  - pose proof (r_next_finished sc g Heq) as Hn.
    now rewrite (gstep_r_idle _ _ Hn), (grun_r_idle _ _ _ Hn).
  - destruct (r_next_some sc g He ltac:(lia)) as [op Hop].
    destruct (gstep_r_progress _ _ _ Hop) as [_ Hr].
    apply IH; [now apply r_enabled_step|lia|lia].
Qed.

Lemma J_core sc strict g x' dm' rm' da ra :
  J sc strict g -> (2 <= g_dn g)%nat -> core x' = core (g_fs g) ->
  J sc strict (mkG x' dm' rm' (g_dn g) (g_rn g) da ra).
Proof.
  intros HJ Hn Hc. injection Hc as Hd Hs _ Ho. destruct (j_rec HJ Hn) as [s [Es R]].
  apply J_next with (r := s); [lia|exact (j_bound HJ)|exact (j_spawn HJ)| | |exact R|].
  - rewrite Hd. apply (j_dir HJ). lia.
  - now rewrite Hs.
  - unfold stdout_content. rewrite Ho. exact (j_out HJ).
Qed.

Lemma J_kill sc strict g r : J sc strict g -> J sc strict (kill g r).
Proof. intros [A B C D E F]. destruct r; constructor; auto. Qed.

(* the negation of [in_window] for the death of the daemon, read on the state before the crash *)
Definition outside_window (sc : scenario) (g : gstate) (cut : nat) : Prop :=
  match snd (victim_next sc g false) with
  | Some o => match window_cut o with Some k => Nat.eqb cut k | None => false end
  | None => false
  end = false.

Lemma cut_core sc strict g cut op mem :
  J sc strict g -> (2 <= g_dn g)%nat ->
  (d_next sc g = Some op \/ r_next sc g = Some op) ->
  Nat.leb (length op) cut = false ->
  match window_cut op with Some k => Nat.eqb cut k | None => false end = false ->
  core (p_fs (exec_steps (mkP (g_fs g) mem false) (firstn cut op))) = core (g_fs g).
Proof.
  intros HJ Hn2 Hop Hlen Hwin. apply Nat.leb_gt in Hlen.
  destruct (j_rec HJ Hn2) as [s [Hs _]].
  (* a rewrite of the record, cut before the truncation *)
  assert (Hupd : forall f, op = upd_op f ->
            core (p_fs (exec_steps (mkP (g_fs g) mem false) (firstn cut op))) = core (g_fs g)).
  { intros f ->. apply Nat.eqb_neq in Hwin.
    simpl in Hlen. apply (upd_op_cut _ _ _ s); [exact Hs|lia]. }
  (* a single step, not executed *)
  assert (Hone : forall o, op = fs_op o ->
            core (p_fs (exec_steps (mkP (g_fs g) mem false) (firstn cut op))) = core (g_fs g)).
  { intros o ->. simpl in Hlen. assert (cut = 0%nat) by lia. subst cut. reflexivity. }
  destruct Hop as [Hd|Hr].
  - apply d_next_nth, d_prog_nth in Hd.
    destruct Hd as [Hn|Hn|o Hn Hrem Ho|Hn Hloc|f Hn Hf]; [lia|lia|now apply (Hone o)| |now apply (Hupd f)].
    simpl in Hlen. lia.
  - apply r_next_nth in Hr as [_ Hnth].
    destruct (r_prog_nth _ _ _ Hnth) as [[o [_ [-> _]]]|[st [sz [-> _]]]]; [eapply Hone|eapply Hupd]; reflexivity.
Qed.

Lemma gcrash_daemon sc g cut :
  J sc true g -> g_ralive g = true -> (2 <= g_dn g)%nat -> outside_window sc g cut ->
  let g2 := gcrash sc g false cut in
  J sc true g2 /\ g_dalive g2 = false /\ g_ralive g2 = true /\ (g_dn g <= g_dn g2)%nat.
Proof.
  intros HJ Hra Hn Hwin. unfold gcrash. cbn [andb].
  unfold outside_window in Hwin.
  destruct (victim_next sc g false) as [who [op|]] eqn:Ev; cbn [snd] in Hwin.
  - destruct (Nat.leb (length op) cut) eqn:El.
    + destruct (gstep_flags sc g who) as [_ B]. pose proof (gstep_dn sc g who) as C.
      split; [apply J_kill, J_gstep, HJ|]. cbn [kill g_dalive g_ralive g_dn].
      split; [reflexivity|]. split; [congruence|exact C].
    + split; [|cbn [kill g_dalive g_ralive g_dn]; auto].
      apply J_kill, (J_core sc true g); [exact HJ|exact Hn|].
      apply (cut_core sc true g cut op); auto.
      unfold victim_next in Ev. cbn [andb] in Ev.
      destruct (is_remote sc && Nat.leb (d_spawn sc) (g_dn g)); inversion Ev; auto.
  - split; [apply J_kill, HJ|]. cbn [kill g_dalive g_ralive g_dn]. auto.
Qed.

(* [g1], [g2], [g3] of [experiment] *)
Definition g1of (sc : scenario) (cp : crashpoint) : gstate := grun sc (g0 sc) (cp_sched cp).
Definition g2of (sc : scenario) (cp : crashpoint) : gstate :=
  gcrash sc (g1of sc cp) (cp_runner cp) (cp_cut cp).
Definition g3of (sc : scenario) (cp : crashpoint) : gstate :=
  grun sc (g2of sc cp) (repeat (cp_runner cp) (cp_gap cp)).

Lemma experiment_acked sc cp :
  o_acked (experiment sc cp) = Nat.leb (d_ack sc) (g_dn (g1of sc cp)).
Proof. unfold experiment. cbv zeta. now destruct (recover _ _). Qed.

Lemma crash_setup sc cp :
  cp_runner cp = false -> in_window sc cp = false ->
  Nat.leb (d_ack sc) (g_dn (g1of sc cp)) = true ->
  J sc true (g2of sc cp) /\ J sc true (g3of sc cp) /\
  g_dalive (g2of sc cp) = false /\ g_ralive (g3of sc cp) = true /\
  g_dn (g3of sc cp) = g_dn (g2of sc cp) /\ (d_ack sc <= g_dn (g2of sc cp))%nat.
Proof.
  intros Hr Hw Ha. apply Nat.leb_le in Ha.
  assert (HJ1 : J sc true (g1of sc cp)) by (apply J_grun, J0).
  pose proof (grun_ralive sc (cp_sched cp) (g0 sc)) as Hra1.
  assert (Hout : outside_window sc (g1of sc cp) (cp_cut cp)).
  { unfold outside_window. unfold in_window in Hw. rewrite Hr in Hw. exact Hw. }
  assert (Hn1 : (2 <= g_dn (g1of sc cp))%nat) by (unfold d_ack in Ha; destruct (is_remote sc); lia).
  destruct (gcrash_daemon sc (g1of sc cp) (cp_cut cp) HJ1 Hra1 Hn1 Hout) as [HJ2 [Hd2 [Hr2 Hn2]]].
  unfold g3of, g2of. rewrite Hr.
  pose proof (grun_ralive sc (repeat false (cp_gap cp)) (gcrash sc (g1of sc cp) false (cp_cut cp))) as F2.
  split; [exact HJ2|]. split; [apply J_grun, HJ2|]. split; [exact Hd2|]. split; [now rewrite F2|].
  split; [apply grun_r_dn|]. clear - Ha Hn2. lia.
Qed.

Lemma final_complete sc : st_complete (final_state sc) = true.
Proof. unfold final_state. now destruct (sc_ok sc). Qed.

Lemma stdout_full sc : stdout_of_ops (firstn (length (r_prog sc)) (r_prog sc)) = sc_output sc.
Proof.
  rewrite firstn_all, r_prog_split, stdout_of_ops_app, r_body_stdout.
  unfold stdout_of_ops, final_op. simpl. now rewrite app_nil_r.
Qed.

Lemma produced sc g4 :
  J sc false g4 -> r_enabled sc g4 -> (2 <= g_dn g4)%nat ->
  let g5 := grun sc g4 (rest_sched sc) in
  exists s5, uf_status (g_fs g5) = Some (encode s5) /\
             rec_ok sc false (g_dn g4) (length (r_prog sc)) s5 /\
             uf_dir (g_fs g5) = true /\ stdout_content (g_fs g5) = sc_output sc.
Proof.
  intros HJ He Hn. cbv zeta. unfold rest_sched.
  pose proof (grun_r_complete sc (length (r_prog sc)) g4 He (j_bound HJ) ltac:(lia)) as Hm.
  pose proof (grun_r_dn sc (length (r_prog sc)) g4) as Hd.
  pose proof (J_grun sc false (repeat false (length (r_prog sc))) g4 HJ) as HJ5.
  set (g5 := grun sc g4 (repeat false (length (r_prog sc)))) in *.
  destruct (j_rec HJ5 ltac:(lia)) as [s5 [Hs R5]]. rewrite Hm, Hd in R5.
  exists s5. split; [exact Hs|]. split; [exact R5|]. split.
  - apply (j_dir HJ5). lia.
  - rewrite (j_out HJ5), Hm. apply stdout_full.
Qed.

Lemma completes sc g4 :
  J sc false g4 -> r_enabled sc g4 -> (2 <= g_dn g4)%nat ->
  let g5 := grun sc g4 (rest_sched sc) in
  exists s5, uf_status (g_fs g5) = Some (encode s5) /\ uf_dir (g_fs g5) = true /\
             s_wtype s5 = sc_wtype sc /\ s_state s5 = final_state sc /\
             s_size s5 = N.of_nat (length (sc_output sc)) /\
             stdout_content (g_fs g5) = sc_output sc.
Proof.
  intros HJ He Hn. destruct (produced sc g4 HJ He Hn) as [s5 [Hs [R5 [D O]]]].
  destruct (ro_final R5 eq_refl) as [F1 F2].
  exists s5. repeat split; auto. exact (ro_wtype R5).
Qed.

Lemma kind_local sc : wf_scenario sc = true -> is_remote sc = false ->
  kind_of (sc_types sc) (sc_wtype sc) = KCmd.
Proof.
  unfold wf_scenario, kind_of. intros H E. rewrite E in H.
  apply andb_true_iff in H as [H1 H2]. apply negb_true_iff in H2. now rewrite H2, H1.
Qed.

Lemma kind_remote sc : wf_scenario sc = true -> is_remote sc = true ->
  kind_of (sc_types sc) (sc_wtype sc) = KRemote.
Proof. unfold wf_scenario, kind_of. intros H E. rewrite E in H. now rewrite H. Qed.

Local Notation answer r m := (mkView true true r m).

Lemma recover_local sc x s :
  wf_scenario sc = true -> is_remote sc = false ->
  uf_dir x = true -> uf_status x = Some (encode s) -> s_wtype s = sc_wtype sc ->
  recover (sc_types sc) x =
  if st_complete (s_state s) then (locked x, answer s false)
  else if s_state s =? S_PENDING
       then (with_status x (encode (failed_rec x s)), answer (failed_rec x s) true)
       else (locked x, answer s true).
Proof. intros Hwf Hl Hd Hs Hw. now rewrite (recover_intact _ _ s Hd Hs), Hw, (kind_local sc Hwf Hl). Qed.

Lemma recover_remote sc x s :
  wf_scenario sc = true -> is_remote sc = true ->
  uf_dir x = true -> uf_status x = Some (encode s) -> s_wtype s = sc_wtype sc ->
  recover (sc_types sc) x =
  if started s then (locked x, answer s true)
  else (with_status x (encode (failed_rec x s)), answer (failed_rec x s) false).
Proof. intros Hwf Hr Hd Hs Hw. now rewrite (recover_intact _ _ s Hd Hs), Hw, (kind_remote sc Hwf Hr). Qed.

Lemma recover_finished sc x s :
  wf_scenario sc = true -> uf_dir x = true -> uf_status x = Some (encode s) ->
  s_wtype s = sc_wtype sc -> st_complete (s_state s) = true ->
  (is_remote sc = true -> started s = true) ->
  exists m, recover (sc_types sc) x = (locked x, answer s m).
Proof.
  intros Hwf Hd Hs Hw Hc Hst. destruct (is_remote sc) eqn:Er.
  - exists true. now rewrite (recover_remote sc x s), Hst.
  - exists false. now rewrite (recover_local sc x s), Hc.
Qed.

Lemma started_iff sc n s : is_remote sc = true -> ext_ok sc n (s_extra s) ->
  (started s = true <-> (9 <= n)%nat).
Proof.
  unfold is_remote, ext_ok, started. destruct (sc_remote sc) as [[node rtype]|]; [|discriminate].
  intros _ [nd [rt [ru [st [E [_ S]]]]]]. now rewrite E.
Qed.

Lemma failed_rec_idem x c s : failed_rec (with_status x c) (failed_rec x s) = failed_rec x s.
Proof. reflexivity. Qed.

Section Restart.
Variables (sc : scenario) (cp : crashpoint).
Hypothesis Hwf : wf_scenario sc = true.
Hypothesis Hrun : cp_runner cp = false.

Local Notation g2 := (g2of sc cp).
Local Notation g3 := (g3of sc cp).
Local Notation x3 := (g_fs (g3of sc cp)).

(* how the crash and the time the node was down have left things ([crash_setup]), and the
   records they have left *)
Hypothesis J3 : J sc true g3.
Hypothesis D2 : g_dalive g2 = false.
Hypothesis A3 : g_ralive g3 = true.
Hypothesis DN : g_dn g3 = g_dn g2.
Hypothesis ACK : (d_ack sc <= g_dn g2)%nat.

Variables s2 s3 : status.
Hypothesis Hs2 : uf_status (g_fs g2) = Some (encode s2).
Hypothesis R2 : rec_ok sc true (g_dn g2) (g_rn g2) s2.
Hypothesis Hs3 : uf_status x3 = Some (encode s3).
Hypothesis R3 : rec_ok sc true (g_dn g3) (g_rn g3) s3.

Local Lemma n3 : (4 <= g_dn g3)%nat.
Proof.
  rewrite DN. pose proof ACK as H. unfold d_ack in H. destruct (is_remote sc); lia.
Qed.

Local Lemma dir3 : uf_dir x3 = true.
Proof. apply (j_dir J3). pose proof n3. lia. Qed.

Local Lemma rn_spawned : (1 <= g_rn g3)%nat -> r_spawned sc g3 = true.
Proof. intro H. apply Nat.leb_le, (j_spawn J3 H). Qed.

Local Lemma started_spawned : is_remote sc = true -> started s3 = r_spawned sc g3.
Proof.
  intro Hr. apply eq_true_iff_eq. rewrite (started_iff sc _ s3 Hr (ro_ext R3)).
  unfold r_spawned. rewrite Nat.leb_le, (d_spawn_remote sc Hr). reflexivity.
Qed.

(* where the producer cannot move, nothing has happened while the node was down: a remote
   unit (nobody mirrors it), a unit that had finished *)
Local Lemma unmoved : r_next sc g2 = None -> s3 = s2.
Proof.
  intro H. assert (E : g3 = g2) by (unfold g3of; rewrite Hrun; apply grun_r_idle, H).
  pose proof Hs3 as H3. rewrite E in H3. exact (same_record _ _ _ H3 Hs2).
Qed.

Local Lemma remote_unmoved : is_remote sc = true -> s3 = s2.
Proof.
  intro Hr. apply unmoved. unfold r_next.
  destruct (negb (r_spawned sc g2)); [reflexivity|]. now rewrite Hr, D2.
Qed.

Local Lemma unfinished : st_complete (s_state s3) = false -> st_complete (s_state s2) = false.
Proof.
  intro H. destruct (st_complete (s_state s2)) eqn:E; [|reflexivity].
  rewrite (unmoved (r_next_finished sc g2 (ro_complete R2 eq_refl E))) in H. congruence.
Qed.

Local Lemma producing_spawned o : o_spawned o = r_spawned sc g2 -> o_before o = Some s2 ->
  producing sc cp o = r_spawned sc g3.
Proof.
  intros Hsp Hb. unfold producing. rewrite Hsp, Hb. unfold r_spawned. rewrite <- DN. fold (r_spawned sc g3).
  destruct (is_remote sc) eqn:Er.
  - rewrite <- (remote_unmoved Er). now apply started_spawned.
  - rewrite Hrun. apply andb_true_r.
Qed.

(* the restarted daemon finds the record and leaves it, or marks it Failed *)
Inductive restarted : ufiles -> status -> Prop :=
| kept : restarted (locked x3) s3
| marked : restarted (with_status x3 (encode (failed_rec x3 s3))) (failed_rec x3 s3).

Local Lemma identity x4 r m : restarted x4 r ->
  v_listed (answer r m) = true /\ s_wtype (v_status (answer r m)) = sc_wtype sc /\
  extra_ok sc (Some s2) (answer r m) = true.
Proof.
  intro H. split; [reflexivity|]. cbn [v_status].
  assert (E : s_wtype r = s_wtype s3 /\ s_extra r = s_extra s3) by (destruct H; split; reflexivity).
  destruct E as [Hw Hx]. split; [rewrite Hw; exact (ro_wtype R3)|].
  pose proof (ro_ext R3) as X. unfold extra_ok, ext_ok in *. cbn [v_status]. rewrite Hx.
  destruct (sc_remote sc) as [[node rtype]|] eqn:E; [|reflexivity].
  rewrite <- (remote_unmoved ltac:(unfold is_remote; now rewrite E)).
  destruct X as [nd [rt [ru [st [Ex [B _]]]]]]. destruct (B ltac:(pose proof n3; lia)) as [-> ->].
  rewrite Ex, !beq_bytes_refl. destruct ru; [reflexivity|apply beq_bytes_refl].
Qed.

(* [g4], [g5] of [experiment] when the restart leaves the files [x4] and answers [answer r m] *)
Local Notation g4of x4 r m :=
  (mkG x4 r (g_rmem g3) (g_dn g3) (g_rn g3) (is_remote sc && m) (g_ralive g3 && negb (is_remote sc))).
Local Notation g5of x4 r m :=
  (if is_remote sc && negb (is_remote sc && m) then g4of x4 r m
   else grun sc (g4of x4 r m) (rest_sched sc)).
Local Notation acked := (Nat.leb (d_ack sc) (g_dn (g1of sc cp))).

Local Lemma experiment_of x4 r m : recover (sc_types sc) x3 = (x4, answer r m) ->
  experiment sc cp =
  mkOut acked (r_spawned sc g2) (Some s2) (answer r m)
        (if m then answer (follow (g_fs (g5of x4 r m)) r) true else answer r false)
        (g_fs (g5of x4 r m)) (snd (recover (sc_types sc) (g_fs (g5of x4 r m)))).
Proof.
  intro Hrec. unfold experiment. cbv zeta. fold (g1of sc cp). fold g2. fold g3.
  rewrite Hrec, (record_of_intact _ _ Hs2). cbn [v_monitored v_status v_listed v_known].
  destruct (is_remote sc), m; reflexivity.
Qed.

(* The rest of the experiment where the producer cannot move (never started, or finished): the
   answers and the files stay those of the restart. *)
Local Lemma tail_idle x4 r m :
  restarted x4 r -> recover (sc_types sc) x3 = (x4, answer r m) ->
  r_spawned sc g3 = false \/ g_rn g3 = length (r_prog sc) ->
  experiment sc cp =
  mkOut acked (r_spawned sc g2) (Some s2) (answer r m) (answer r m) x4 (snd (recover (sc_types sc) x4)).
Proof.
  intros H4 Hrec Hidle. rewrite (experiment_of _ _ _ Hrec).
  assert (Hn : r_next sc (g4of x4 r m) = None)
    by (destruct Hidle; [now apply r_next_unspawned|now apply r_next_finished]).
  assert (E5 : g5of x4 r m = g4of x4 r m)
    by (destruct (is_remote sc && negb _); [reflexivity|apply grun_r_idle, Hn]).
  rewrite E5. cbn [g_fs].
  assert (Hs : uf_status x4 = Some (encode r)) by (destruct H4; [exact Hs3|reflexivity]).
  rewrite (follow_intact _ _ _ Hs). now destruct m.
Qed.

(* ... and where it had been started and the daemon follows the unit again: the producer runs to
   its end, the daemon answers its last record *)
Local Lemma tail_runs x4 r :
  restarted x4 r -> recover (sc_types sc) x3 = (x4, answer r true) ->
  st_complete (s_state s3) = false -> r_spawned sc g3 = true ->
  exists s5 x5, experiment sc cp =
    mkOut acked (r_spawned sc g2) (Some s2) (answer r true) (answer s5 true) x5 (snd (recover (sc_types sc) x5)) /\
    uf_status x5 = Some (encode s5) /\ rec_ok sc false (g_dn g3) (length (r_prog sc)) s5 /\
    uf_dir x5 = true /\ stdout_content x5 = sc_output sc.
Proof.
  intros H4 Hrec Ec Hsp. rewrite (experiment_of _ _ _ Hrec).
  assert (E5 : g5of x4 r true = grun sc (g4of x4 r true) (rest_sched sc))
    by (destruct (is_remote sc); reflexivity).
  rewrite E5. clear E5. set (g4 := g4of x4 r true).
  pose proof n3 as Hn.
  (* the invariant, without [strict], holds of what the restart leaves *)
  assert (HJ : J sc false g4).
  { apply J_next with (r := r); [lia|exact (j_bound J3)|exact (j_spawn J3)| | | |].
    - rewrite <- dir3. destruct H4; reflexivity.
    - destruct H4; [exact Hs3|reflexivity].
    - destruct H4; [exact (rec_ok_weaken _ _ _ _ R3)|].
      (* marked Failed: acceptable as long as the producer's last operation is still to come *)
      destruct R3 as [W3 X3 _ _ F3].
      constructor; unfold failed_rec; cbn [s_wtype s_extra s_state s_size];
        [exact W3|exact X3|discriminate|discriminate|].
      intro Hm. destruct (F3 Hm) as [Fs _]. rewrite Fs, final_complete in Ec. discriminate.
    - rewrite <- (j_out J3). destruct H4; reflexivity. }
  assert (He : r_enabled sc g4).
  { split; [exact Hsp|]. unfold g4. cbn [g_dalive g_ralive]. rewrite A3. destruct (is_remote sc); reflexivity. }
  destruct (produced sc g4 HJ He ltac:(unfold g4; cbn [g_dn]; lia)) as [s5 [H5 [R5 [D5 O5]]]].
  exists s5, (g_fs (grun sc g4 (rest_sched sc))).
  split; [|auto]. now rewrite (follow_intact _ _ _ H5).
Qed.

(* [holds] read on such an outcome: f is the record answered in the end, x5 the files then *)
Local Lemma holds_of a x4 r m f m' x5 :
  restarted x4 r ->
  experiment sc cp =
    mkOut a (r_spawned sc g2) (Some s2) (answer r m) (answer f m') x5 (snd (recover (sc_types sc) x5)) ->
  (if st_complete (s_state s2)
   then (s_state r = s_state s2 /\ s_size r = s_size s2) /\
        (s_state f = s_state s2 /\ s_size f = s_size s2) /\ stdout_content x5 = sc_output sc
   else if r_spawned sc g3
        then st_complete (s_state f) = true /\ s_size f = N.of_nat (length (sc_output sc)) /\
             stdout_content x5 = sc_output sc
        else s_state f = S_FAILED) ->
  (st_complete (s_state f) = true -> exists m'', snd (recover (sc_types sc) x5) = answer f m'') ->
  holds sc cp = true.
Proof.
  intros H4 E Hout Hagain. unfold holds. cbv zeta. rewrite E. cbn [o_acked].
  destruct a; [|reflexivity]. cbn [negb].
  destruct (identity x4 r m H4) as [_ [I2 I3]].
  unfold identity_ok, finished_before. rewrite (producing_spawned (mkOut _ _ _ _ _ _ _) eq_refl eq_refl).
  cbn [o_before o_restart o_final o_final_fs o_again v_listed v_status] in *.
  rewrite I2, beq_bytes_refl, I3. cbn [andb]. apply andb_true_iff. split.
  - unfold same_outcome. cbn [v_status]. destruct (st_complete (s_state s2)).
    + destruct Hout as [[Q1 Q2] [[F1 F2] O]]. now rewrite Q1, Q2, F1, F2, O, !N.eqb_refl, beq_bytes_refl.
    + destruct (r_spawned sc g3).
      * destruct Hout as [C [S O]]. now rewrite C, S, O, N.eqb_refl, beq_bytes_refl.
      * now rewrite Hout.
  - destruct (st_complete (s_state f)); [|reflexivity].
    destruct (Hagain eq_refl) as [m'' ->]. cbn [v_status v_known]. now rewrite beq_status_refl.
Qed.

(* the unit has finished: the record is left alone, for good *)
Local Lemma case_finished : st_complete (s_state s3) = true -> holds sc cp = true.
Proof.
  intro Ec. pose proof (ro_complete R3 eq_refl Ec) as Hm. destruct (ro_final R3 Hm) as [Fs Fz].
  pose proof (r_prog_pos sc) as Hpos.
  assert (Hsp : r_spawned sc g3 = true) by (apply rn_spawned; lia).
  assert (Hkept : forall x, uf_dir x = true -> uf_status x = Some (encode s3) ->
            exists m, recover (sc_types sc) x = (locked x, answer s3 m)).
  { intros x Hd Hs. apply recover_finished; auto; [exact (ro_wtype R3)|].
    intro Hr. now rewrite started_spawned. }
  destruct (Hkept x3 dir3 Hs3) as [m Hrec]. destruct (Hkept (locked x3) dir3 Hs3) as [m' Hagain].
  pose proof (tail_idle _ _ m kept Hrec (or_intror Hm)) as E.
  assert (Hout : stdout_content (locked x3) = sc_output sc).
  { change (stdout_content (locked x3)) with (stdout_content x3).
    rewrite (j_out J3), Hm. apply stdout_full. }
  apply (holds_of _ _ _ _ _ _ _ kept E).
  - destruct (st_complete (s_state s2)) eqn:E2.
    + rewrite (unmoved (r_next_finished sc g2 (ro_complete R2 eq_refl E2))). auto.
    + rewrite Hsp, Ec, Fz. auto.
  - intros _. rewrite Hagain. now exists m'.
Qed.

(* unfinished, the producer started: the daemon follows the unit again, to its end *)
Local Lemma case_produced : st_complete (s_state s3) = false -> r_spawned sc g3 = true -> holds sc cp = true.
Proof.
  intros Ec Hsp.
  assert (Hrec : exists x4 r, restarted x4 r /\ recover (sc_types sc) x3 = (x4, answer r true)).
  { destruct (is_remote sc) eqn:Er.
    - exists (locked x3), s3. split; [exact kept|].
      now rewrite (recover_remote sc x3 s3 Hwf Er dir3 Hs3 (ro_wtype R3)), (started_spawned Er), Hsp.
    - rewrite (recover_local sc x3 s3 Hwf Er dir3 Hs3 (ro_wtype R3)), Ec.
      destruct (s_state s3 =? S_PENDING); eauto using kept, marked. }
  destruct Hrec as [x4 [r [H4 Hrec]]].
  destruct (tail_runs x4 r H4 Hrec Ec Hsp) as [s5 [x5 [E [H5 [R5 [D5 O5]]]]]].
  destruct (ro_final R5 eq_refl) as [Fs Fz].
  apply (holds_of _ _ _ _ _ _ _ H4 E).
  - rewrite (unfinished Ec), Hsp, Fs, Fz. auto using final_complete.
  - intros _.
    destruct (recover_finished sc _ s5 Hwf D5 H5 (ro_wtype R5)) as [m' Hagain].
    + rewrite Fs. apply final_complete.
    + intro Hr. apply (started_iff sc _ s5 Hr (ro_ext R5)).
      apply Nat.leb_le in Hsp. now rewrite (d_spawn_remote sc Hr) in Hsp.
    + rewrite Hagain. now exists m'.
Qed.

(* unfinished, the producer never started: marked Failed, for good *)
Local Lemma case_never : st_complete (s_state s3) = false -> r_spawned sc g3 = false -> holds sc cp = true.
Proof.
  intros Ec Hsp.
  assert (Hp3 : s_state s3 = S_PENDING).
  { apply (ro_pending R3 eq_refl). destruct (g_rn g3) eqn:E; [reflexivity|].
    rewrite rn_spawned in Hsp by lia. discriminate. }
  set (fr := failed_rec x3 s3). set (xf := with_status x3 (encode fr)).
  (* a local unit is marked by Restart of the command unit, a remote one for not being started;
     the record so marked is complete (local) and still not started (remote) *)
  assert (Hrec : exists m, recover (sc_types sc) x3 = (xf, answer fr m) /\
                 exists m', snd (recover (sc_types sc) xf) = answer fr m').
  { destruct (is_remote sc) eqn:Er.
    - exists false. rewrite (recover_remote sc x3 s3 Hwf Er dir3 Hs3 (ro_wtype R3)).
      rewrite (recover_remote sc xf fr Hwf Er dir3 eq_refl (ro_wtype R3)).
      change (started fr) with (started s3). rewrite (started_spawned Er), Hsp.
      split; [reflexivity|]. exists false. cbn [snd]. unfold xf, fr. now rewrite failed_rec_idem.
    - exists true. rewrite (recover_local sc x3 s3 Hwf Er dir3 Hs3 (ro_wtype R3)), Ec, Hp3.
      rewrite (recover_local sc xf fr Hwf Er dir3 eq_refl (ro_wtype R3)).
      split; [reflexivity|]. now exists false. }
  destruct Hrec as [m [Hrec Hagain]].
  pose proof (tail_idle _ _ m marked Hrec (or_introl Hsp)) as E.
  apply (holds_of _ _ _ _ _ _ _ marked E).
  - now rewrite (unfinished Ec), Hsp.
  - intros _. exact Hagain.
Qed.

End Restart.

Theorem C04_partial_thm : forall sc cp,
  wf_scenario sc = true -> cp_runner cp = false -> in_window sc cp = false -> holds sc cp = true.
Proof.
  intros sc cp Hwf Hrun Hwin.
  destruct (o_acked (experiment sc cp)) eqn:Hack; [|unfold holds; cbv zeta; now rewrite Hack].
  rewrite experiment_acked in Hack.
  destruct (crash_setup sc cp Hrun Hwin Hack) as [J2 [J3 [D2 [A3 [DN ACK]]]]].
  assert (Hn : (2 <= g_dn (g2of sc cp))%nat) by (unfold d_ack in ACK; destruct (is_remote sc); lia).
  destruct (j_rec J2 Hn) as [s2 [Hs2 R2]].
  rewrite <- DN in Hn. destruct (j_rec J3 Hn) as [s3 [Hs3 R3]].
  destruct (st_complete (s_state s3)) eqn:Ec; [eapply case_finished; eassumption|].
  destruct (r_spawned sc (g3of sc cp)) eqn:Hsp.
  - eapply case_produced; eassumption.
  - eapply case_never; eassumption.
Qed.

(* k restarts in a row (the daemon killed again each time, nothing else touching the unit) *)
Fixpoint cycles (types : list bytes) (x : ufiles) (k : nat) : ufiles :=
  match k with
  | O => x
  | S k' => fst (recover types (cycles types x k'))
  end.

(* whether the unit is monitored again is not part of the answer *)
Definition same_answer (a b : view) : Prop :=
  v_listed a = v_listed b /\ v_known a = v_known b /\ v_status a = v_status b.

Definition has_record (x : ufiles) : Prop := uf_dir x = true /\ exists s, uf_status x = Some (encode s).

(* a record that is kept is found again as it was; one marked Failed is from then on kept
   (command unit) or marked in the same way again (remote unit that never started) *)
Lemma recover_stable types x : has_record x ->
  has_record (fst (recover types x)) /\
  same_answer (snd (recover types (fst (recover types x)))) (snd (recover types x)).
Proof.
  intros [Hd [s Hs]].
  assert (Hkept : forall v, recover types x = (locked x, v) ->
            has_record (fst (recover types x)) /\
            same_answer (snd (recover types (fst (recover types x)))) (snd (recover types x))).
  { intros v E. rewrite E. cbn [fst]. rewrite (recover_locked types x s Hd Hs), E.
    repeat split; [exact Hd|now exists s]. }
  set (fr := failed_rec x s). set (xf := with_status x (encode fr)).
  assert (Hf : has_record xf) by (split; [exact Hd|now exists fr]).
  pose proof (recover_intact types xf fr Hd eq_refl) as E2.
  change (s_wtype fr) with (s_wtype s) in E2. change (started fr) with (started s) in E2.
  change (st_complete (s_state fr)) with true in E2.
  pose proof (recover_intact types x s Hd Hs) as E. fold fr xf in E.
  destruct (kind_of types (s_wtype s)); [now apply (Hkept _ E)| |].
  - destruct (st_complete (s_state s)); [now apply (Hkept _ E)|].
    destruct (s_state s =? S_PENDING); [|now apply (Hkept _ E)].
    (* marked Failed: a complete record, which [E2] says is kept *)
    rewrite E. cbn [fst snd]. rewrite E2. split; [exact Hf|repeat split].
  - destruct (started s); [now apply (Hkept _ E)|].
    (* marked Failed and still not started: [E2] says it is marked again, to the same record *)
    rewrite E. cbn [fst snd]. rewrite E2. split; [exact Hf|repeat split].
Qed.

Lemma cycles_record types x k : has_record x -> has_record (cycles types x k).
Proof.
  intro H. induction k as [|k IH]; [exact H|]. simpl. now apply recover_stable.
Qed.

Lemma cycles_S types x k : cycles types x (S k) = cycles types (fst (recover types x)) k.
Proof. induction k as [|k IH]; [reflexivity|]. simpl in *. now rewrite IH. Qed.

Lemma same_answer_trans a b c : same_answer a b -> same_answer b c -> same_answer a c.
Proof. intros [A1 [A2 A3]] [B1 [B2 B3]]. repeat split; congruence. Qed.

Theorem crash_recovery_idempotent_thm : forall types x k,
  uf_dir x = true -> (exists s, uf_status x = Some (encode s)) \/ uf_status x = Some [] ->
  same_answer (snd (recover types (cycles types x (S k)))) (snd (recover types (cycles types x 1))).
Proof.
  intros types x k Hd Hx.
  assert (H1 : has_record (fst (recover types x))).
  { destruct Hx as [Hs|He]; [apply recover_stable; now split|].
    rewrite (recover_emptied types x Hd He). split; [exact Hd|eexists; reflexivity]. }
  induction k as [|k IH]; [repeat split|].
  eapply same_answer_trans; [|exact IH].
  change (cycles types x (S (S k))) with (fst (recover types (cycles types x (S k)))).
  apply recover_stable. rewrite cycles_S. now apply cycles_record.
Qed.

(* Restart of a command unit returns at once for a complete state and only watches a cancelled
   one; a started remote unit is only watched (the model does not carry LocalCancelled /
   LocalReleased, with which Restart sends the cancel or release again); an unknown unit is
   never touched. *)
Theorem final_states_fixed_thm : forall types x s,
  uf_dir x = true -> uf_status x = Some (encode s) -> st_final (s_state s) = true ->
  (kind_of types (s_wtype s) = KRemote -> started s = true) ->
  exists known mon,
    recover types x = (locked x, mkView true known s mon) /\ core (locked x) = core x.
Proof.
  intros types x s Hd Hs Hf Hrem. rewrite (recover_intact types x s Hd Hs).
  destruct (kind_of types (s_wtype s)) eqn:Ek.
  - now exists false, false.
  - unfold st_final in Hf. destruct (st_complete (s_state s)) eqn:Ec.
    + now exists true, false.
    + cbn [orb] in Hf. apply N.eqb_eq in Hf. rewrite Hf. cbn. now exists true, true.
  - rewrite (Hrem eq_refl). now exists true, true.
Qed.

Theorem final_states_fixed_cycles_thm : forall types x s k,
  uf_dir x = true -> uf_status x = Some (encode s) -> st_final (s_state s) = true ->
  (kind_of types (s_wtype s) = KRemote -> started s = true) ->
  core (cycles types x k) = core x /\ v_status (snd (recover types (cycles types x k))) = s.
Proof.
  intros types x s k Hd Hs Hf Hrem.
  assert (Hstep : forall y, core y = core x ->
            exists kn mn, recover types y = (locked y, mkView true kn s mn) /\ core (locked y) = core y).
  { intros y Hy. unfold core in Hy. inversion Hy as [[E1 E2 E3 E4]].
    apply final_states_fixed_thm; try congruence; auto. }
  assert (H : core (cycles types x k) = core x).
  { induction k as [|k IH]; [reflexivity|]. simpl.
    destruct (Hstep _ IH) as [kn [mn [E C]]]. rewrite E. cbn [fst]. now rewrite C. }
  split; [exact H|]. destruct (Hstep _ H) as [kn [mn [E C]]]. now rewrite E.
Qed.

Theorem scan_independent_thm : forall types d n,
  dlookup n (scan_dir types d) = option_map (scan_entry types) (dlookup n d).
Proof.
  intros types d n. unfold dlookup, scan_dir.
  induction d as [|[m e] r IH]; [reflexivity|]. simpl.
  destruct (m =? n); [reflexivity|exact IH].
Qed.

Lemma dlookup_here {A} n (a : A) l : dlookup n ((n, a) :: l) = Some a.
Proof. unfold dlookup. simpl. now rewrite N.eqb_refl. Qed.

(* entries that do not bear the name are passed over *)
Lemma dlookup_app_skip {A} n (l1 l2 : list (N * A)) :
  dlookup n l1 = None -> dlookup n (l1 ++ l2) = dlookup n l2.
Proof.
  unfold dlookup. induction l1 as [|[m a] r IH]; simpl; [reflexivity|].
  destruct (m =? n); [discriminate|exact IH].
Qed.

Theorem scan_stop_refuted_thm : forall fails types n1 n2 e x,
  fails e = true -> n1 <> n2 ->
  dlookup n2 (scan_stop fails types [(n1, e); (n2, DUnit x)]) = None /\
  dlookup n2 (scan_dir types [(n1, e); (n2, DUnit x)]) = Some (scan_entry types (DUnit x)).
Proof.
  intros fails types n1 n2 e x Hf Hne. apply N.eqb_neq in Hne.
  unfold dlookup. simpl. rewrite Hf. simpl. rewrite Hne, N.eqb_refl. split; reflexivity.
Qed.

(* Proofs/CrashMirror.v — the output mirror after a restart (Model/CrashMirror.v): what the restart
   of a started remote unit answers under the real rule and under the command unit's rule, and
   what being monitored again means for `work results`. *)
From Receptor Require Import Model.Crash Model.CrashMirror Proofs.Status.
Open Scope N_scope.

(* a complete started remote unit is not monitored again under the command unit's rule *)
Lemma recover_skip_complete_remote types x s :
  uf_dir x = true -> uf_status x = Some (encode s) -> st_complete (s_state s) = true ->
  kind_of types (s_wtype s) = KRemote -> started s = true ->
  recover_skip_complete types x = (locked x, mkView true true s false).
Proof.
  intros Hd Hs Hc Hk Hst. unfold recover_skip_complete.
  rewrite (recover_started_remote types x s Hd Hs Hk Hst). cbn [v_status]. now rewrite Hc.
Qed.

(* a monitored unit's results end once the executing node holds what is recorded *)
Lemma monitored_results_end v stored remote_len :
  v_monitored v = true -> s_size (v_status v) <= remote_len ->
  results_end v (stored_in_the_end v stored remote_len) = true.
Proof.
  intros Hm Hle. unfold results_end, stored_in_the_end. rewrite Hm.
  apply N.leb_le. rewrite N.min_l by exact Hle. apply N.le_max_r.
Qed.

(* an unmonitored unit keeps what it has stored: short of the recorded size, its results never end *)
Lemma unmonitored_results_open v stored remote_len :
  v_monitored v = false -> stored < s_size (v_status v) ->
  stored_in_the_end v stored remote_len = stored /\
  results_end v (stored_in_the_end v stored remote_len) = false.
Proof.
  intros Hm Hlt. unfold results_end, stored_in_the_end. rewrite Hm. split; [reflexivity|].
  now apply N.leb_gt.
Qed.

Example skip_complete_instance :
  let s := mkStatus S_SUCCEEDED 60000 remote_name (XRemote [98] [101] [117] true) in
  let x := mkU true (Some (encode s)) (Some []) (Some []) (Some (repeat 0 100%nat)) in
  results_end (snd (recover_skip_complete [[101]] x)) (stored_in_the_end (snd (recover_skip_complete [[101]] x)) 100 60000) = false
  /\ results_end (snd (recover [[101]] x)) (stored_in_the_end (snd (recover [[101]] x)) 100 60000) = true.
Proof. vm_compute. split; reflexivity. Qed.

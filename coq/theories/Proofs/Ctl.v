(* Proofs/Ctl.v — lemmas for property C08 over Model/Ctl.v.  Everything is proved for arbitrary
   oracles (JSON decoder, ToLower, ParseDuration, unit-ID generator). *)
From Coq Require Import String.
From Receptor Require Import Model.Ctl.

(* a node description is well formed when every "foreign" path is a unit ID that scanForUnit
   ignores: empty, ".", "..", or with a path separator *)
Definition foreign_ok (nd : node) : bool := forallb (fun p => bad_unit_id (fst p)) (n_foreign nd).

(* the repaired findUnit takes and releases the lock in balanced, non-nested sections *)
Lemma find_ops_repaired_ok a b c : lock_run lock_free (find_ops repaired a b c) = LOk lock_free.
Proof. destruct a, b, c; reflexivity. Qed.

(* the pinned one asks for the write lock while holding the read lock as soon as a unit found on
   disk has to be registered *)
Lemma find_ops_pinned_blocks : lock_run lock_free (find_ops pinned false true true) = LBlock.
Proof. reflexivity. Qed.

Lemma find_ops_pinned_else_ok a b :
  lock_run lock_free (find_ops pinned true a b) = LOk lock_free /\
  lock_run lock_free (find_ops pinned false a false) = LOk lock_free.
Proof. destruct a, b; split; reflexivity. Qed.

(* [branches]: as long as the goal contains a [match] (an [if], a [let '(_, _)]), case analysis on
   what it matches on.  It turns a statement about one of the model's decision trees (an Init
   function, run_submit, findUnit, the dispatch of a line) into one goal per leaf and does nothing
   else; it is used where all leaves are closed in the one way written after it.  [repeat] stops
   when no [match] is left; the trees are not recursive. *)
Ltac branches := repeat match goal with |- context[match ?x with _ => _ end] => destruct x end.

Section CtlProofs.
Variable parse : bytes -> option jobj.
Variable lower : bytes -> bytes.
Variable ttl_ok : bytes -> bool.
Variable fresh : node -> bytes.

Notation exec_line := (exec_line parse lower ttl_ok fresh).
Notation run_cmd := (run_cmd lower ttl_ok fresh).
Notation run_work := (run_work lower ttl_ok fresh).
Notation after_init := (after_init lower ttl_ok fresh).
Notation valid_line := (valid_line parse lower).
Notation session := (session parse lower ttl_ok fresh).
Notation run_lines := (run_lines parse lower ttl_ok fresh).

(* the line is answered: no panic, no wait for the lock *)
Definition answers (o : line_outcome) : Prop := exists nd rs, o = LReplies nd rs.

Lemma answers_intro nd rs : answers (LReplies nd rs).
Proof. now exists nd, rs. Qed.

(* findUnit of the repaired tree finds the unit or does not, on every node: the lock is never in
   the way *)
Lemma find_unit_answers nd id :
  exists nd', find_unit repaired nd id = Found nd' \/ find_unit repaired nd id = NotFound nd'.
Proof.
  unfold find_unit. destruct (mem_b id (n_index nd)); rewrite find_ops_repaired_ok; [eauto|].
  branches; eauto.
Qed.

Lemma of_found_answers nd id k :
  (forall nd', answers (k nd')) -> answers (of_found (find_unit repaired nd id) k).
Proof.
  intro Hk. destruct (find_unit_answers nd id) as [nd' [-> | ->]]; [apply Hk|apply answers_intro].
Qed.

(* the shape of `work list`, `work status` and of the second lookup of `work results` *)
Lemma unit_reply_answers nd (u : option bytes) rs0 rs :
  answers (match u with
           | None => LReplies nd rs0
           | Some id => of_found (find_unit repaired nd id) (fun nd' => LReplies nd' rs)
           end).
Proof.
  destruct u; [|apply answers_intro]. apply of_found_answers. intro nd'. apply answers_intro.
Qed.

Lemma run_work_answers nd sub p : answers (run_work repaired nd sub p).
Proof.
  unfold run_work. destruct (beq_bytes sub s_submit).
  { (* every way out of submit is a reply *)
    unfold run_submit. branches; apply answers_intro. }
  destruct (beq_bytes sub s_list); [apply unit_reply_answers|].
  destruct (beq_bytes sub s_status); [apply unit_reply_answers|].
  destruct (beq_bytes sub s_cancel || beq_bytes sub s_release || beq_bytes sub s_frelease).
  { destruct (wp_unitid p); [|apply answers_intro]. apply of_found_answers. intro nd'.
    destruct (negb (isnil (opt_nil (wp_signature p)))); [|destruct (beq_bytes sub s_cancel)];
      apply answers_intro. }
  destruct (beq_bytes sub s_results); [|apply answers_intro].
  destruct (wp_unitid p) as [u|]; [|apply answers_intro]. apply of_found_answers. intro nd'.
  destruct (negb (isnil (opt_nil (wp_signature p)))); [apply answers_intro|].
  (* GetResults looks the unit up again *)
  apply (unit_reply_answers nd' (Some u) []).
Qed.

(* only `work` touches the node: every other command replies in it *)
Lemma run_cmd_cases fx nd c :
  (exists rs, run_cmd fx nd c = LReplies nd rs) \/ exists sub p, c = PWork sub p.
Proof.
  destruct c as [t|f|n s t|t| |sub p]; simpl; eauto.
  (* connect: refused for its TLS profile, bridged, or unreachable *)
  left. destruct (negb (isnil t) && negb (mem_b t (n_tls nd))); [eauto|].
  destruct (mem_pair n s (n_reach nd)); eauto.
Qed.

(* no Init of the repaired tree panics: the one IPanic there is, in init_status_j, is behind f_status *)
Lemma init_string_no_panic cmd params pt : init_string lower cmd params <> Some (IPanic pt).
Proof.
  unfold init_string, init_ping_s, init_status_s, init_connect_s, init_traceroute_s, init_work_s.
  branches; discriminate.
Qed.

Lemma init_json_no_panic cmd m pt : init_json lower repaired cmd m <> Some (IPanic pt).
Proof.
  unfold init_json, init_ping_j, init_status_j, init_connect_j, init_traceroute_j, init_work_j.
  simpl f_status. branches; discriminate.
Qed.

Lemma after_init_answers nd i :
  (forall pt, i <> Some (IPanic pt)) -> answers (after_init repaired nd i).
Proof.
  intro Hp. destruct i as [[c| |pt]|]; simpl; try apply answers_intro.
  - destruct (run_cmd_cases repaired nd c) as [[rs ->]|(sub & p & ->)];
      [apply answers_intro|apply run_work_answers].
  - now destruct (Hp pt).
Qed.

(* the command a line stands for, if it names one *)
Definition line_cmd (line : bytes) : option ires :=
  match line with
  | [] => None
  | b :: _ =>
    if b =? 123 then
      match parse line with
      | None => None
      | Some m => match jget s_command m with
                  | Some v => match as_str v with Some cmd => init_json lower repaired cmd m | None => None end
                  | None => None
                  end
      end
    else let '(w, p) := split_sp line in init_string lower (lower w) (opt_nil p)
  end.

Lemma valid_line_cmd line :
  valid_line repaired line = match line_cmd line with Some (IOk _) => true | _ => false end.
Proof. destruct line; reflexivity. Qed.

Lemma line_cmd_no_panic line pt : line_cmd line <> Some (IPanic pt).
Proof.
  destruct line as [|b l]; [discriminate|]. unfold line_cmd.
  branches; try discriminate; [apply init_json_no_panic|apply init_string_no_panic].
Qed.

(* a non-empty line goes on with what its command's Init made of it, unless it is JSON that does
   not decode or has no command string: then two error lines (the second for the command "") *)
Lemma exec_line_cmd nd b l :
  exec_line repaired nd (b :: l) = after_init repaired nd (line_cmd (b :: l)) \/
  line_cmd (b :: l) = None /\ exec_line repaired nd (b :: l) = LReplies nd [RErr; RErr].
Proof.
  unfold exec_line, line_cmd. branches; auto.
Qed.

Lemma exec_line_answers nd line : answers (exec_line repaired nd line).
Proof.
  destruct line as [|b l]; [apply answers_intro|].
  destruct (exec_line_cmd nd b l) as [->|[_ ->]]; [|apply answers_intro].
  apply after_init_answers. intro pt. apply line_cmd_no_panic.
Qed.

(* a non-empty line that is not a valid command: the first reply line is an ERROR line, and the
   node is exactly as before *)
Theorem ctl_error_reply nd line :
  line <> [] -> valid_line repaired line = false ->
  exists rs, exec_line repaired nd line = LReplies nd (RErr :: rs).
Proof.
  intros Hne Hv. rewrite valid_line_cmd in Hv. destruct line as [|b l]; [congruence|].
  destruct (exec_line_cmd nd b l) as [->|[_ ->]]; [|now exists [RErr]].
  destruct (line_cmd (b :: l)) as [[c| |pt]|] eqn:E; simpl; [discriminate|now exists []| |now exists []].
  now destruct (line_cmd_no_panic _ _ E).
Qed.

(* the node changes only through a valid `work` command *)
Theorem ctl_session_isolated nd line nd' rs :
  exec_line repaired nd line = LReplies nd' rs -> nd' <> nd ->
  valid_line repaired line = true /\ exists sub p, line_cmd line = Some (IOk (PWork sub p)).
Proof.
  intros He Hn. rewrite valid_line_cmd. destruct line as [|b l]; [simpl in He; congruence|].
  destruct (exec_line_cmd nd b l) as [E|[_ E]]; rewrite E in He; [|congruence].
  destruct (line_cmd (b :: l)) as [[c| |pt]|]; simpl in He; try congruence.
  destruct (run_cmd_cases repaired nd c) as [[rs' E']|(sub & p & ->)]; [rewrite E' in He; congruence|].
  split; [reflexivity|eauto].
Qed.

(* the lines of a schedule are executed one after the other, each in the node the one before has
   left: every interleaving of the lines of any number of sessions is such a schedule *)
Fixpoint run_schedule (fx : fixes) (nd : node) (ls : list bytes) : option node :=
  match ls with
  | [] => Some nd
  | l :: r => match exec_line fx nd l with LReplies nd' _ => run_schedule fx nd' r | _ => None end
  end.

(* every line is answered, so a sequence of lines is: as a session (which ends at a stream
   take-over) and as a schedule; on every node *)
Lemma lines_total ls : forall nd,
  (exists nd' rs, run_lines repaired nd ls = SReplies nd' rs) /\
  (exists nd', run_schedule repaired nd ls = Some nd').
Proof.
  induction ls as [|x l IH]; intro nd; simpl; [split; [now eexists _, _|now eexists]|].
  destruct (exec_line_answers nd x) as (nd1 & rs & ->).
  destruct (IH nd1) as [(nd2 & rs2 & E2) Hs]. split; [|exact Hs].
  destruct (ends_stream rs); [now eexists _, _|]. rewrite E2. simpl. now eexists _, _.
Qed.

(* whatever bytes a client sends, with or without a final half-close: the session produces
   replies; it neither panics nor blocks on the unit-index lock.  (This holds on every node;
   well-formedness matters only for what a lookup of an unknown unit does.) *)
Theorem ctl_total nd input eof : foreign_ok nd = true ->
  exists nd' rs, session repaired nd input eof = SReplies nd' rs.
Proof.
  intros _. unfold session. destruct (lines_of input []) as [ls tl]. apply lines_total.
Qed.

Lemma assoc_foreign_bad nd id nm :
  foreign_ok nd = true -> assoc_b id (n_foreign nd) = Some nm -> bad_unit_id id = true.
Proof.
  unfold foreign_ok. induction (n_foreign nd) as [|[k v] l IH]; simpl; [discriminate|].
  intro H. apply andb_true_iff in H as [H1 H2].
  destruct (beq_bytes k id) eqn:E.
  - apply beq_bytes_eq in E. subst. auto.
  - now apply IH.
Qed.

End CtlProofs.

(* with the mutex at most one session is inside the reload section, whatever the schedule *)
Lemma rl_mutex_le1 evs : forall k, (k <= 1)%nat -> exists k', rl_run true k evs = Some k' /\ (k' <= 1)%nat.
Proof.
  induction evs as [|e r IH]; intros k Hk; simpl; [eauto|].
  destruct e.
  - destruct k as [|k']; [apply IH; auto|]. apply IH; exact Hk.
  - apply IH. destruct k; simpl; auto with arith.
Qed.

Theorem reload_pinned_refuted : rl_run false 0 [Enter; Enter] = None.
Proof. reflexivity. Qed.

(* reading a unit's status inside the index read section inverts the order Release uses: some
   interleaving ends with both goroutines waiting for each other *)
Theorem list_release_nested_refuted : lk_explore 20 (lk_init list_ops_nested release_ops) = false.
Proof. vm_compute. reflexivity. Qed.

(* the interleaving itself (so that [false] is a deadlock, not the fuel running out): release takes the
   status lock, list takes the index read lock, and then neither the status read lock nor the
   index write lock can be had *)
Lemma nested_deadlock_witness :
  exists s1 s2, thread_step (lk_init list_ops_nested release_ops) true = Some s1 /\
                thread_step s1 false = Some s2 /\
                thread_step s2 false = None /\ thread_step s2 true = None /\
                lk_p0 s2 <> [] /\ lk_p1 s2 <> [].
Proof. eexists. eexists. repeat split; try (vm_compute; reflexivity); vm_compute; discriminate. Qed.

(* The defects of the historical tree, each on a concrete node (one unit indexed, one on disk only,
   one foreign path) and a concrete input. *)
Definition ex_node : node :=
  mknode (str "n") false [str "u1"] [str "d1"] [(str "../o/f1", str "f1")] [str "cat"] []
         [(str "n", str "control")].

Definition ex_parse (l : bytes) : option jobj :=
  if beq_bytes l (str "{""command"":""status"",""requested_fields"":""NodeID""}")
  then Some [(str "command", JStr (str "status")); (str "requested_fields", JStr (str "NodeID"))]
  else None.
Definition ex_lower (b : bytes) : bytes := map ascii_lower b.

(* 1. status with requested_fields of non-list type panics the pinned tree *)
Theorem pinned_status_refuted :
  exec_line ex_parse ex_lower (fun _ => true) (fun _ => []) pinned ex_node
            (str "{""command"":""status"",""requested_fields"":""NodeID""}") = LPanic P_REQUESTED_FIELDS.
Proof. vm_compute. reflexivity. Qed.

(* 2. a unit present only on disk dead-locks the pinned tree *)
Theorem pinned_lock_refuted :
  exec_line ex_parse ex_lower (fun _ => true) (fun _ => []) pinned ex_node (str "work status d1") = LDeadlock.
Proof. vm_compute. reflexivity. Qed.

(* 3. with the first two repairs only, an ID that leads out of the data directory is answered
      "unknown work unit" and yet the foreign unit is in the index afterwards *)
Theorem path_escape_refuted :
  exists nd', exec_line ex_parse ex_lower (fun _ => true) (fun _ => []) (mkfix true true false) ex_node
                        (str "work status ../o/f1") = LReplies nd' [RErr]
              /\ n_index nd' = [str "u1"; str "f1"].
Proof. eexists. split; vm_compute; reflexivity. Qed.

(* the same three inputs on the repaired tree *)
Lemma repaired_on_witnesses :
  exec_line ex_parse ex_lower (fun _ => true) (fun _ => []) repaired ex_node
            (str "{""command"":""status"",""requested_fields"":""NodeID""}") = LReplies ex_node [RErr] /\
  (exists nd', exec_line ex_parse ex_lower (fun _ => true) (fun _ => []) repaired ex_node (str "work status d1")
               = LReplies nd' [ROk] /\ n_index nd' = [str "u1"; str "d1"] /\ n_disk nd' = []) /\
  exec_line ex_parse ex_lower (fun _ => true) (fun _ => []) repaired ex_node (str "work status ../o/f1")
    = LReplies ex_node [RErr].
Proof.
  split; [|split].
  - vm_compute. reflexivity.
  - eexists. repeat split; vm_compute; reflexivity.
  - vm_compute. reflexivity.
Qed.

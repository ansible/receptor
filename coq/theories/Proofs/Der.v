(* Proofs/Der.v — decoding inverts encoding for every TLV with a single-octet identifier whose
   content is shorter than 2^31 bytes (the bound Go's parseTagAndLength itself enforces: "length
   too large"). *)
From Coq Require Import Lia.
From Receptor Require Import Base.ListFacts Model.Der.
Open Scope N_scope.

Lemma be_digits_acc fuel : forall n acc, be_digits fuel n acc = be_digits fuel n [] ++ acc.
Proof.
  induction fuel as [|f IH]; intros n acc; simpl; [reflexivity|].
  destruct (n =? 0); [reflexivity|].
  rewrite (IH (n / 256) (n mod 256 :: acc)), (IH (n / 256) [n mod 256]).
  now rewrite <- app_assoc.
Qed.

Lemma be_digits_snoc f n : n <> 0 ->
  be_digits (S f) n [] = be_digits f (n / 256) [] ++ [n mod 256].
Proof.
  intro Hn. simpl. destruct (n =? 0) eqn:E; [apply N.eqb_eq in E; contradiction|].
  apply be_digits_acc.
Qed.

Lemma read_len_split k1 : forall k2 l acc,
  read_len (k1 + k2) l acc =
  match read_len k1 l acc with
  | Ok (a', r') => read_len k2 r' a'
  | Err e => Err e
  | Unsup => Unsup
  end.
Proof.
  induction k1 as [|k1 IH]; intros k2 l acc; simpl; [reflexivity|].
  destruct l as [|b r]; [reflexivity|].
  destruct (8388608 <=? acc); [reflexivity|].
  destruct (acc * 256 + b =? 0); [reflexivity|]. apply IH.
Qed.

Lemma read_len_digits fuel : forall n r,
  n < 2147483648 -> n < 256 ^ N.of_nat fuel ->
  read_len (length (be_digits fuel n [])) (be_digits fuel n [] ++ r) 0 = Ok (n, r).
Proof.
  induction fuel as [|f IH]; intros n r Hb Hf.
  - simpl in *. assert (n = 0) by lia. now subst.
  - destruct (N.eq_dec n 0) as [->|Hn]; [reflexivity|].
    (* the leading digits are those of n / 256, which the accumulator holds when the last one
       is read: it is below 2^23 and the new value is n *)
    assert (Hq : n / 256 < 8388608) by (apply N.div_lt_upper_bound; lia).
    assert (Hq' : n / 256 < 256 ^ N.of_nat f).
    { apply N.div_lt_upper_bound; [lia|]. now rewrite <- N.pow_succ_r', <- Nat2N.inj_succ. }
    rewrite be_digits_snoc by assumption.
    rewrite app_length, <- app_assoc, read_len_split, IH by (assumption || lia).
    cbn [length read_len app].
    rewrite (proj2 (N.leb_gt _ _) Hq), N.mul_comm, <- N.div_mod by discriminate.
    now rewrite (proj2 (N.eqb_neq _ _) Hn).
Qed.

Lemma base256_nonempty n : n <> 0 -> base256 n <> [].
Proof.
  intros Hn. unfold base256. rewrite be_digits_snoc by assumption.
  destruct (be_digits 7 (n / 256) []); discriminate.
Qed.

Lemma parse_tl_enc id n r :
  id mod 32 <> 31 -> n < 2147483648 ->
  parse_tl (id :: enc_len n ++ r) = Ok (id, n, r).
Proof.
  intros Hid Hn. unfold parse_tl, enc_len.
  destruct (id mod 32 =? 31) eqn:E; [now apply N.eqb_eq in E|].
  destruct (n <? 128) eqn:E1.
  - cbn [app]. rewrite E1. reflexivity.
  - cbn [app]. pose proof (proj1 (N.ltb_ge _ _) E1) as Hge.
    pose proof (base256_nonempty n ltac:(lia)) as Hne.
    set (d := base256 n) in *.
    destruct (128 + N.of_nat (length d) <? 128) eqn:E2; [apply N.ltb_lt in E2; lia|].
    replace (128 + N.of_nat (length d) - 128) with (N.of_nat (length d)) by lia.
    destruct (N.of_nat (length d) =? 0) eqn:E3.
    { apply N.eqb_eq in E3. destruct d; [contradiction|]. cbn [length] in E3. lia. }
    rewrite Nat2N.id. subst d. unfold base256.
    (* 256 ^ 8: the eight digits [base256] can produce *)
    rewrite read_len_digits; [|assumption| change (256 ^ N.of_nat 8) with 18446744073709551616; lia].
    cbn [bind]. rewrite E1. reflexivity.
Qed.

Lemma to_nat_blen b : N.to_nat (blen b) = length b.
Proof. apply Nat2N.id. Qed.

Lemma blen_app a b : blen (a ++ b) = blen a + blen b.
Proof. unfold blen. rewrite app_length. lia. Qed.

Lemma parse_tlv_tlv id c rest :
  id mod 32 <> 31 -> blen c < 2147483648 ->
  parse_tlv (tlv id c ++ rest) =
  Ok ({| e_id := id; e_content := c; e_full := tlv id c |}, rest).
Proof.
  intros Hid Hc. unfold parse_tlv.
  replace (parse_tl (tlv id c ++ rest)) with (Ok (id, blen c, c ++ rest) : res (N * N * bytes)).
  2: { unfold tlv. cbn [app]. rewrite <- app_assoc. symmetry. now apply parse_tl_enc. }
  cbn [bind]. rewrite (proj2 (N.leb_le _ _)) by (rewrite blen_app; lia).
  rewrite to_nat_blen, firstn_app_exact, skipn_app_exact by reflexivity.
  replace (length (tlv id c ++ rest) - length rest)%nat with (length (tlv id c))
    by (rewrite app_length; lia).
  now rewrite firstn_app_exact.
Qed.

Lemma parse_tlv_tlv_nil id c :
  id mod 32 <> 31 -> blen c < 2147483648 ->
  parse_tlv (tlv id c) = Ok ({| e_id := id; e_content := c; e_full := tlv id c |}, []).
Proof. intros. rewrite <- (app_nil_r (tlv id c)) at 1. now apply parse_tlv_tlv. Qed.

Lemma be_digits_len fuel : forall n, (length (be_digits fuel n []) <= fuel)%nat.
Proof.
  induction fuel as [|f IH]; intro n; simpl; [lia|].
  destruct (n =? 0); [simpl; lia|].
  rewrite be_digits_acc, app_length. specialize (IH (n / 256)). simpl. lia.
Qed.

(* identifier, one to nine octets of length, content *)
Lemma tlv_len id c : blen c + 2 <= blen (tlv id c) <= blen c + 10.
Proof.
  unfold tlv, blen. cbn [length]. rewrite app_length. unfold enc_len, base256.
  pose proof (be_digits_len 8 (N.of_nat (length c))).
  destruct (_ <? 128); cbn [length]; lia.
Qed.

Lemma tlv_not_nil id c : tlv id c <> [].
Proof. discriminate. Qed.

Lemma parse_elems_step f b : b <> [] ->
  parse_elems (S f) b =
  bind (parse_tlv b) (fun p => let '(e, rest) := p in
                               bind (parse_elems f rest) (fun es => Ok (e :: es))).
Proof. destruct b; [contradiction | reflexivity]. Qed.

(* (identifier, content) pairs: the TLV of a pair, the element it parses back to, and when the
   round trip holds (single-octet identifier, length the decoder admits) *)
Definition ptlv (p : N * bytes) : bytes := tlv (fst p) (snd p).
Definition pelem (p : N * bytes) : elem :=
  {| e_id := fst p; e_content := snd p; e_full := tlv (fst p) (snd p) |}.
Definition wf_pair (p : N * bytes) : Prop := fst p mod 32 <> 31 /\ blen (snd p) < 2147483648.

Lemma parse_elems_concat (l : list (N * bytes)) : forall fuel,
  Forall wf_pair l -> (length l <= fuel)%nat ->
  parse_elems fuel (concat (map ptlv l)) = Ok (map pelem l).
Proof.
  induction l as [|p l IH]; intros fuel Hall Hf.
  - destruct fuel; reflexivity.
  - inversion Hall as [|? ? [H1 H2] Hall']; subst.
    destruct fuel as [|f]; [cbn [length] in Hf; lia|].
    cbn [map concat]. rewrite parse_elems_step by discriminate.
    unfold ptlv at 1. rewrite parse_tlv_tlv by assumption. cbn [bind].
    rewrite IH; [reflexivity|assumption|cbn [length] in Hf; lia].
Qed.

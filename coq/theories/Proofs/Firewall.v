(* Proofs/Firewall.v — property C12 over Model/Firewall.v: the rule loop yields the action of the first
   matching rule, and the node's disposition follows it; what the parser accepts contains nothing
   uninterpretable and compiles to the fields written; installation histories; every packet a node
   originates passes its own rules; the behaviour of the pinned tree as refutations. *)
From Coq Require Import String.
From Receptor Require Import Model.Firewall Proofs.Regex.
Open Scope N_scope.

Lemma beq_text_eq a b : beq_text a b = true <-> a = b.
Proof. apply beq_bytes_eq. Qed.

Lemma beq_text_neq a b : a <> b -> beq_text a b = false.
Proof. apply beq_false_neq. Qed.

Lemma matcher_ok_spec m v : matcher_ok full m v = true <-> matcher_spec m v.
Proof. destruct m; simpl; [apply beq_text_eq | apply full_spec]. Qed.

Lemma rule_matchb_spec r p : forallb (comp_match full p) (pr_comps r) = true <-> matches r p.
Proof.
  rewrite forallb_forall. unfold matches, comp_match. split.
  - intros H f m Hin. apply matcher_ok_spec. exact (H (f, m) Hin).
  - intros H [f m] Hin. apply matcher_ok_spec. simpl. auto.
Qed.

Lemma matches_dec r p : matches r p \/ ~ matches r p.
Proof.
  destruct (forallb (comp_match full p) (pr_comps r)) eqn:E.
  - left. now apply rule_matchb_spec.
  - right. intro H. apply rule_matchb_spec in H. congruence.
Qed.

Lemma decides_total rules p : exists d, decides rules p d.
Proof.
  induction rules as [|r rest [d IH]].
  - exists None. constructor.
  - destruct (matches_dec r p) as [H|H].
    + exists (Some r). now constructor.
    + exists d. now constructor.
Qed.

Lemma decides_unique rules p d1 d2 : decides rules p d1 -> decides rules p d2 -> d1 = d2.
Proof.
  intro H1. revert d2. induction H1; intros d2 H2; inversion H2; subst; auto; contradiction.
Qed.

Lemma decides_first rules p r :
  decides rules p (Some r) <->
  exists pre post, rules = pre ++ r :: post /\ matches r p /\ Forall (fun x => ~ matches x p) pre.
Proof.
  split.
  - intro H. remember (Some r) as d eqn:Ed. induction H.
    + discriminate.
    + inversion Ed; subst. exists [], rest. auto.
    + destruct (IHdecides Ed) as (pre & post & -> & Hm & Hf).
      exists (r0 :: pre), post. auto.
  - intros (pre & post & -> & Hm & Hf). induction pre as [|x pre IH]; simpl.
    + now constructor.
    + inversion Hf; subst. constructor; auto.
Qed.

Lemma decides_none rules p : decides rules p None <-> Forall (fun x => ~ matches x p) rules.
Proof.
  split.
  - intro H. remember None as d eqn:Ed. induction H; try discriminate; auto.
  - induction rules as [|x rest IH]; intro H; inversion H; subst; constructor; auto.
Qed.

Lemma rule_fn_match r p : matches r p -> rule_fn r p = result_of (pr_action r).
Proof.
  intro H. unfold rule_fn, rule_fn_with. apply rule_matchb_spec in H. now rewrite H.
Qed.

Lemma rule_fn_nomatch r p : ~ matches r p -> rule_fn r p = FwContinue.
Proof.
  intro H. unfold rule_fn, rule_fn_with.
  destruct (forallb (comp_match full p) (pr_comps r)) eqn:E; auto.
  apply rule_matchb_spec in E. contradiction.
Qed.

Lemma fw_loop_spec rules p d : decides rules p d ->
  forall init, fw_loop rules p init =
    match d with
    | Some r => result_of (pr_action r)
    | None => match rules with [] => init | _ => FwContinue end
    end.
Proof.
  (* after a non-empty list without a match Go's [result] is Continue, whatever it was before *)
  induction 1; intro init; simpl.
  - reflexivity.
  - fold (rule_fn r p). rewrite rule_fn_match by assumption. now destruct (pr_action r).
  - fold (rule_fn r p). rewrite rule_fn_nomatch by assumption.
    fold (fw_loop rest p FwContinue). rewrite IHdecides. destruct d; auto. now destruct rest.
Qed.

Lemma effective_result a : effective (result_of a) = a.
Proof. now destruct a. Qed.

Theorem eval_first_match rules p d : decides rules p d -> effective (eval rules p) = verdict d.
Proof.
  intro H. unfold eval, eval_with. fold (fw_loop rules p FwAccept). rewrite (fw_loop_spec _ _ _ H).
  destruct d; simpl; [apply effective_result | now destruct rules].
Qed.

(* the switch on the verdict in handleMessageData *)
Theorem handle_dictated rules p d : decides rules p d -> handle rules p = dictated (verdict d) p.
Proof.
  intro H. unfold handle, handle_with. fold (eval rules p).
  pose proof (eval_first_match _ _ _ H) as E. unfold dictated.
  destruct (eval rules p); simpl in E; rewrite <- E; reflexivity.
Qed.

Theorem reject_notice_unless_unreach rules p d :
  decides rules p d -> verdict d = Reject ->
  (p_fromservice p = svc_unreach -> handle rules p = DReject None) /\
  (p_fromservice p <> svc_unreach ->
   handle rules p = DReject (Some (mkU (p_fromnode p) (p_tonode p) (p_fromservice p) (p_toservice p) problem_rejected))).
Proof.
  intros H Hv. rewrite (handle_dictated _ _ _ H), Hv. simpl. split; intro Hs.
  - apply beq_text_eq in Hs. now rewrite Hs.
  - now rewrite (beq_text_neq _ _ Hs).
Qed.

Theorem node_firewall_spec_thm : forall self rules p d,
  decides rules p d ->
  match verdict d with
  | Accept => node_handle self rules p = [(p, None)]
  | Drop => node_handle self rules p = []
  | Reject =>
    if beq_text (p_fromservice p) svc_unreach then node_handle self rules p = []
    else let u := mkU (p_fromnode p) (p_tonode p) (p_fromservice p) (p_toservice p) problem_rejected in
         forall d', decides rules (notice_pkt self u) d' ->
           node_handle self rules p =
           match verdict d' with Accept => [(notice_pkt self u, Some u)] | _ => [] end
  end.
Proof.
  intros self rules p d H. unfold node_handle, node_handle_with.
  change (handle_with full) with handle. rewrite (handle_dictated _ _ _ H).
  destruct (verdict d); simpl; auto.
  destruct (beq_text (p_fromservice p) svc_unreach); auto.
  intros d' H'. rewrite (handle_dictated _ _ _ H'). destruct (verdict d'); reflexivity.
Qed.

Lemma passes_spec rules p : passes rules p = true <-> (forall d, decides rules p d -> verdict d = Accept).
Proof.
  unfold passes, passes_with. fold (handle rules p). split.
  - intros Hp d H. rewrite (handle_dictated _ _ _ H) in Hp. now destruct (verdict d).
  - intro Hall. destruct (decides_total rules p) as [d H].
    rewrite (handle_dictated _ _ _ H), (Hall d H). reflexivity.
Qed.

Lemma chain_delivered_passes rest : forall visited p,
  chain visited rest p = Delivered <-> forallb (fun n => passes (snd n) p) rest = true.
Proof.
  induction rest as [|n rest IH]; intros visited p; [easy|].
  unfold chain, passes, passes_with in *. simpl.
  destruct (handle_with full (snd n) p) as [| |[u|]]; [apply IH | easy | | easy].
  (* rejected with a notice: Notified or Silent, as the way back lets the notice through or not *)
  now destruct (_ && _).
Qed.

(* the field of the struct that a lower-cased key names *)
Definition get_field (fr : frule) (lk : text) : text :=
  if beq_text lk kw_action then f_action fr
  else if beq_text lk kw_fromnode then f_fromnode fr
  else if beq_text lk kw_tonode then f_tonode fr
  else if beq_text lk kw_fromservice then f_fromservice fr
  else if beq_text lk kw_toservice then f_toservice fr
  else [].

(* the switch on the key in ParseFirewallRule: only a known key is taken, its field gets the
   value, every other field keeps its own *)
Lemma set_field_spec fr ks v fr' :
  set_field fr (lower ks) v = Some fr' ->
  known_key ks = true /\ get_field fr' (lower ks) = v /\
  forall lk, lk <> lower ks -> get_field fr' lk = get_field fr lk.
Proof.
  unfold set_field, known_key. generalize (lower ks). intros k H.
  destruct (beq_text k kw_action) eqn:E; [|clear E;
  destruct (beq_text k kw_fromnode) eqn:E; [|clear E;
  destruct (beq_text k kw_tonode) eqn:E; [|clear E;
  destruct (beq_text k kw_fromservice) eqn:E; [|clear E;
  destruct (beq_text k kw_toservice) eqn:E; [|discriminate]]]]];
  (* each of the five: [k] is that keyword, [fr'] is [fr] with that one field replaced *)
  apply beq_text_eq in E; subst k; injection H as <-;
  (split; [reflexivity|]; split; [reflexivity|]);
  intros lk Hne; unfold get_field; simpl; now rewrite (beq_text_neq _ _ Hne).
Qed.

Fixpoint keys_of (r : raw_rule) : list text :=
  match r with
  | [] => []
  | (KStr k, _) :: rest => lower k :: keys_of rest
  | (KOther, _) :: rest => keys_of rest
  end.

Lemma dup_keys_false_seen r : forall seen,
  dup_keys r seen = false -> forall x, In x seen -> ~ In x (keys_of r).
Proof.
  induction r as [|[k v] rest IH]; intros seen H x Hx; simpl; auto.
  destruct k as [ks|]; simpl in H.
  - apply orb_false_iff in H as [H1 H2]. intros [E|Hin].
    + subst x. apply existsb_beq_bytes_In in Hx. exact (eq_true_false_abs _ Hx H1).
    + apply (IH _ H2 x); auto. now right.
  - now apply (IH _ H x).
Qed.

Lemma no_action_key r :
  existsb (fun kv => is_action_key (fst kv)) r = false -> ~ In kw_action (keys_of r).
Proof.
  induction r as [|[[ks|] v] rest IH]; simpl; intro H; [tauto | | auto].
  apply orb_false_iff in H as [E H]. intros [Hk|Hin]; [|now apply IH].
  rewrite Hk in E. discriminate.
Qed.

(* Each stage of the parser is described by what its outcome says about its input.
   [outcome x P]: the stage did not panic, and a result it gave satisfies [P]. *)
Definition outcome {A} (x : pres A) (P : A -> Prop) : Prop :=
  match x with POk a => P a | PErr _ => True | PPanic => False end.

Lemma outcome_impl {A} (x : pres A) (P Q : A -> Prop) :
  outcome x P -> (forall a, P a -> Q a) -> outcome x Q.
Proof. destruct x; simpl; auto. Qed.

Lemma outcome_bind {A B} (x : pres A) (f : A -> pres B) (P : A -> Prop) (Q : B -> Prop) :
  outcome x P -> (forall a, x = POk a -> P a -> outcome (f a) Q) -> outcome (bindp x f) Q.
Proof. destruct x; simpl; auto. Qed.

Lemma outcome_ok {A} (x : pres A) P a : outcome x P -> x = POk a -> P a.
Proof. now intros H ->. Qed.

(* a rule that fills the struct: every element is a known key with a string value, which the
   struct still holds at the end because no key comes twice; the fields not named are untouched *)
Lemma fill_spec kvs : forall seen fr,
  outcome (fill_with true kvs seen fr) (fun fr' =>
    Forall (fun kv => exists ks val, kv = (KStr ks, VStr val) /\ known_key ks = true
                                     /\ get_field fr' (lower ks) = val) kvs
    /\ dup_keys kvs seen = false
    /\ (forall lk, ~ In lk (keys_of kvs) -> get_field fr' lk = get_field fr lk)).
Proof.
  induction kvs as [|[k v] rest IH]; intros seen fr; simpl; [auto|].
  destruct v as [val|]; [|exact I]. destruct k as [ks|]; [|exact I].
  destruct (mem_text (lower ks) seen) eqn:Em; [exact I|].
  destruct (set_field fr (lower ks) val) as [fr1|] eqn:Es; [|exact I].
  apply set_field_spec in Es as (Hk & Hsame & Hother).
  apply (outcome_impl _ _ _ (IH _ fr1)). intros fr' (Hall & Hdup & Hkeep).
  assert (Hnot : ~ In (lower ks) (keys_of rest)).
  { apply (dup_keys_false_seen _ _ Hdup). now left. }
  split; [|split].
  - constructor; [|exact Hall]. exists ks, val. rewrite (Hkeep _ Hnot). auto.
  - exact Hdup.
  - intros lk Hlk. simpl in Hlk. rewrite Hkeep by tauto. apply Hother. intro E. subst lk. tauto.
Qed.

(* the compiled rule carries exactly the fields that were written: literal, /regex/, or absent *)
Definition field_of (gp : text -> option re) (f : field) (v : text) : list comp :=
  match v with
  | [] => []
  | c :: _ => if c =? slash then match gp (inner v) with Some r => [(f, MRe r)] | None => [] end
              else [(f, MLit v)]
  end.

Definition comps_of (gp : text -> option re) (fr : frule) : list comp :=
  field_of gp FromNode (f_fromnode fr) ++ field_of gp ToNode (f_tonode fr)
  ++ field_of gp FromService (f_fromservice fr) ++ field_of gp ToService (f_toservice fr).

Lemma action_of_nil : action_of [] = None.
Proof. reflexivity. Qed.

Section Parser.
  Variable gp : text -> option re.

  Lemma build_comp_spec f v :
    outcome (build_comp gp f v)
            (fun c => malformed_pattern gp v = false /\ opt_list c = field_of gp f v).
  Proof.
    unfold build_comp, malformed_pattern, field_of, outcome. destruct v as [|c0 rest]; [easy|].
    destruct (c0 =? slash); [|easy]. cbn [andb].
    destruct (Nat.ltb (length (c0 :: rest)) 2); [easy|].
    destruct (negb (last (c0 :: rest) 0 =? slash)); [easy|].
    now destruct (gp (inner (c0 :: rest))).
  Qed.

  Definition wellformed (fr : frule) : Prop :=
    malformed_pattern gp (f_fromnode fr) = false /\ malformed_pattern gp (f_tonode fr) = false /\
    malformed_pattern gp (f_fromservice fr) = false /\ malformed_pattern gp (f_toservice fr) = false.

  Lemma build_comps_spec fr :
    outcome (build_comps_with (build_comp gp) fr)
            (fun comps => wellformed fr /\ comps = comps_of gp fr).
  Proof.
    unfold build_comps_with.
    eapply outcome_bind; [apply build_comp_spec|]. intros c1 _ [M1 E1].
    eapply outcome_bind; [apply build_comp_spec|]. intros c2 _ [M2 E2].
    eapply outcome_bind; [apply build_comp_spec|]. intros c3 _ [M3 E3].
    eapply outcome_bind; [apply build_comp_spec|]. intros c4 _ [M4 E4].
    unfold comps_of. rewrite <- E1, <- E2, <- E3, <- E4. now repeat split.
  Qed.

  Lemma parse_rule_spec raw :
    outcome (parse_rule gp raw) (fun r =>
      exists fr, fill raw = POk fr /\ action_of (f_action fr) = Some (pr_action r) /\
                 wellformed fr /\ pr_comps r = comps_of gp fr).
  Proof.
    unfold parse_rule, parse_rule_with.
    eapply outcome_bind; [apply fill_spec|]. intros fr Ef _.
    eapply outcome_bind; [apply build_comps_spec|]. intros comps _ [Hw ->].
    destruct (action_of (f_action fr)) as [a|] eqn:Ea; [|exact I]. exists fr. auto.
  Qed.

  Lemma parse_rules_spec rules :
    outcome (parse_rules gp rules) (Forall2 (fun raw r => parse_rule gp raw = POk r) rules).
  Proof.
    induction rules as [|raw rest IH]; [constructor|].
    unfold parse_rules in *. simpl.
    eapply outcome_bind; [apply parse_rule_spec|]. intros r Er _.
    eapply outcome_bind; [exact IH|]. intros rs _ Hrs. now constructor.
  Qed.

  (* what an accepted rule's struct holds under a known key is acceptable there *)
  Lemma fields_good fr a ks :
    action_of (f_action fr) = Some a -> wellformed fr -> known_key ks = true ->
    bad_element gp (KStr ks, VStr (get_field fr (lower ks))) = false.
  Proof.
    intros Ea (M1 & M2 & M3 & M4) Hk. simpl. rewrite Hk. unfold get_field.
    destruct (beq_text (lower ks) kw_action); [now rewrite Ea|].
    destruct (beq_text (lower ks) kw_fromnode); [exact M1|].
    destruct (beq_text (lower ks) kw_tonode); [exact M2|].
    destruct (beq_text (lower ks) kw_fromservice); [exact M3|].
    destruct (beq_text (lower ks) kw_toservice); [exact M4|reflexivity].
  Qed.

  Lemma parse_rule_ok_not_bad raw x : parse_rule gp raw = POk x -> bad_rule gp raw = false.
  Proof.
    intro H. apply (outcome_ok _ _ _ (parse_rule_spec raw)) in H as (fr & Ef & Ea & Hw & _).
    apply (outcome_ok _ _ _ (fill_spec raw [] frule0)) in Ef as (Hall & Hdup & Hkeep).
    unfold bad_rule. rewrite Hdup, orb_false_r. apply orb_false_iff. split.
    - (* no bad element: the struct holds its value under its key *)
      apply not_true_iff_false. intro Ex. apply existsb_exists in Ex as (kv & Hin & Hbad).
      rewrite Forall_forall in Hall. destruct (Hall _ Hin) as (ks & val & -> & Hk & <-).
      now rewrite (fields_good _ _ _ Ea Hw Hk) in Hbad.
    - (* there is an action: otherwise the field is still empty *)
      apply negb_false_iff, not_false_iff_true. intro Ex.
      apply no_action_key, Hkeep in Ex. change (f_action fr = []) in Ex.
      rewrite Ex, action_of_nil in Ea. discriminate.
  Qed.

  Theorem bad_rule_refused raw : bad_rule gp raw = true -> exists e, parse_rule gp raw = PErr e.
  Proof.
    intro Hb. pose proof (parse_rule_spec raw) as S.
    destruct (parse_rule gp raw) as [x|e|] eqn:E; [|eauto|destruct S].
    apply parse_rule_ok_not_bad in E. congruence.
  Qed.

  (* ... and so is a set that holds one *)
  Theorem bad_rules_refused_thm : forall rules,
    existsb (bad_rule gp) rules = true -> exists e, parse_rules gp rules = PErr e.
  Proof.
    intros rules Hb. pose proof (parse_rules_spec rules) as S.
    destruct (parse_rules gp rules) as [rs|e|]; [|eauto|destruct S].
    exfalso. induction S as [|raw r rest rs Hr _ IH]; simpl in Hb; [discriminate|].
    apply orb_true_iff in Hb as [Hb|Hb]; [|auto].
    apply bad_rule_refused in Hb as [e He]. congruence.
  Qed.
End Parser.

(* an accepted set is accepted rule by rule, each compiled rule being what [field_of] makes of the
   four fields *)
Theorem never_wider_thm : forall gp rules rs,
  parse_rules gp rules = POk rs ->
  Forall2 (fun raw r => exists fr, fill raw = POk fr /\ action_of (f_action fr) = Some (pr_action r) /\
                                   pr_comps r = comps_of gp fr)
    rules rs.
Proof.
  intros gp rules rs H. pose proof (parse_rules_spec gp rules) as S. rewrite H in S. clear H.
  induction S as [|raw r rest rs' Hr _ IH]; [constructor|]. constructor; [|exact IH].
  apply (outcome_ok _ _ _ (parse_rule_spec gp raw)) in Hr as (fr & Ef & Ea & _ & Hc). eauto.
Qed.


Theorem install_after_clear : forall (A : Type) (h1 : list (list A * bool)) cur new h2,
  install_all cur (h1 ++ (new, true) :: h2) = install_all new h2.
Proof.
  intros A h1. induction h1 as [|[l c] h1 IH]; intros cur new h2; simpl.
  - reflexivity.
  - apply IH.
Qed.

Theorem install_appends : forall (A : Type) (h : list (list A * bool)) cur,
  forallb (fun x => negb (snd x)) h = true -> install_all cur h = cur ++ concat (map fst h).
Proof.
  intros A h. induction h as [|[l c] h IH]; intros cur H; simpl in *.
  - now rewrite app_nil_r.
  - apply andb_true_iff in H as [Hc H]. destruct c; [discriminate|].
    unfold install. rewrite IH by assumption. now rewrite app_assoc.
Qed.

Lemma proceed_passes rules p : handle rules p = DProceed -> passes rules p = true.
Proof. intro E. unfold passes, passes_with. change (handle_with full) with handle. now rewrite E. Qed.

Lemma single_passes rules p (m : option unreach_msg) q n :
  passes rules p = true -> In (q, n) [(p, m)] -> passes rules q = true.
Proof. intros Hp [[= <- _]|[]]. exact Hp. Qed.

Lemma node_handle_passes self rules p q n :
  In (q, n) (node_handle self rules p) -> passes rules q = true.
Proof.
  unfold node_handle, node_handle_with. change (handle_with full) with handle.
  destruct (handle rules p) as [| |[u|]] eqn:E; try contradiction.
  - now apply single_passes, proceed_passes.
  - destruct (handle rules (notice_pkt self u)) eqn:E2; try contradiction.
    now apply single_passes, proceed_passes.
Qed.

Lemma node_handle2_same self rules p :
  node_handle2_with full self rules rules p = node_handle self rules p.
Proof.
  unfold node_handle2_with, node_handle, node_handle_with, emit_with, passes_with.
  destruct (handle_with full rules p) as [| |[u|]]; auto.
  destruct (handle_with full rules (notice_pkt self u)); auto.
Qed.

Lemma emit_passes self rules u q n : In (q, n) (emit self rules u) -> passes rules q = true.
Proof.
  unfold emit, emit_with. change (passes_with full) with passes.
  destruct (passes rules (notice_pkt self u)) eqn:E; [now apply single_passes | contradiction].
Qed.

Theorem node_full_passes_thm : forall self rules p listening hops q n,
  In (q, n) (node_full self rules p listening hops) -> passes rules q = true.
Proof.
  intros self rules p listening hops q n. unfold node_full, node_full_with.
  change (node_handle_with full) with node_handle. change (emit_with full) with emit.
  change (handle_with full) with handle.
  destruct (handle rules p) eqn:E; try apply node_handle_passes.
  (* [p] itself proceeds; whatever else leaves is a ping reply or a notice *)
  pose proof (single_passes rules p None q n (proceed_passes _ _ E)) as Hself.
  destruct (beq_text (p_tonode p) self).
  - destruct (beq_text (p_toservice p) svc_ping);
      [destruct (beq_text (p_fromservice p) svc_ping); [contradiction | apply node_handle_passes]|].
    destruct (beq_text (p_toservice p) svc_unreach); [exact Hself|].
    destruct listening; [exact Hself|].
    destruct (beq_text (p_fromnode p) self); [contradiction | apply emit_passes].
  - destruct hops; [exact Hself|].
    destruct (beq_text (p_fromservice p) svc_unreach); [contradiction | apply emit_passes].
Qed.

(* with a listener and hops left, and not addressed to the ping service, it is [node_handle] *)
Theorem node_full_plain : forall self rules p,
  beq_text (p_toservice p) svc_ping = false ->
  node_full self rules p true true = node_handle self rules p.
Proof.
  intros self rules p Hs. unfold node_full, node_full_with, node_handle, node_handle_with.
  destruct (handle_with full rules p); auto. rewrite Hs.
  destruct (beq_text (p_tonode p) self); auto.
  destruct (beq_text (p_toservice p) svc_unreach); auto.
Qed.

Theorem ping_self_spec : forall self eph rules,
  (ping_self self eph rules = PingReply <->
   passes rules (mkPkt self eph self svc_ping) = true /\ passes rules (mkPkt self svc_ping self eph) = true).
Proof.
  intros self eph rules. unfold ping_self, ping_self_with, passes, passes_with.
  destruct (handle_with full rules (mkPkt self eph self svc_ping)) as [| |[u|]]; [| easy | | easy].
  - now destruct (handle_with full rules (mkPkt self svc_ping self eph)).
  - now destruct (handle_with full rules (notice_pkt self u)).
Qed.

Definition re_a_or_b : re := RAlt (RSet (CsChar 97)) (RSet (CsChar 98)).
Definition gp_ab (s : text) : option re := if beq_text s (str "a|b") then Some re_a_or_b else None.

Definition raw_alt : list raw_rule :=
  [[(KStr (str "action"), VStr (str "reject")); (KStr (str "fromnode"), VStr (str "/a|b/"))]].
Definition pkt_abc : pkt := mkPkt (str "abc") (str "s") (str "z") (str "s").

(* DESIGN §9, C12: "^a|b$" — the packet from "abc" matches no rule, yet is rejected *)
Theorem hist_anchoring_refuted_thm :
  exists gp raw rules p,
    parse_rules_hist gp raw = POk rules /\ parse_rules gp raw = POk rules /\
    decides rules p None /\ effective (eval_hist rules p) = Reject /\ effective (eval rules p) = Accept.
Proof.
  exists gp_ab, raw_alt, [mkRule [(FromNode, MRe re_a_or_b)] Reject], pkt_abc.
  repeat split; try (vm_compute; reflexivity).
  apply decides_none. constructor; [|constructor].
  intro H. apply rule_matchb_spec in H. vm_compute in H. discriminate.
Qed.

Definition raw_badre : list raw_rule :=
  [[(KStr (str "action"), VStr (str "drop")); (KStr (str "tonode"), VStr (str "/(/"))]].
Definition raw_unterminated : list raw_rule :=
  [[(KStr (str "action"), VStr (str "drop")); (KStr (str "fromnode"), VStr (str "/abc"))]].
Definition gp_none (s : text) : option re := None.

(* DESIGN §9, C12: the error of the pattern is thrown away, the field disappears, the rule matches all *)
Theorem hist_widening_refuted_thm :
  existsb (bad_rule gp_none) raw_badre = true /\ existsb (bad_rule gp_none) raw_unterminated = true /\
  parse_rules_hist gp_none raw_badre = POk [mkRule [] Drop] /\
  parse_rules_hist gp_none raw_unterminated = POk [mkRule [] Drop] /\
  (forall p, eval_hist [mkRule [] Drop] p = FwDrop).
Proof. repeat split. Qed.

Definition raw_lone_slash : list raw_rule :=
  [[(KStr (str "action"), VStr (str "accept")); (KStr (str "toservice"), VStr (str "/"))]].

(* the same row: value[1:len(value)-1] on "/" *)
Theorem hist_lone_slash_panics_thm : forall gp, parse_rules_hist gp raw_lone_slash = PPanic.
Proof. reflexivity. Qed.

Definition raw_dup : list raw_rule :=
  [[(KStr (str "Action"), VStr (str "bogus")); (KStr (str "action"), VStr (str "accept"))]].

(* found while modelling: one key in two spellings — the later one (in map order!) wins *)
Theorem hist_dup_key_refuted_thm :
  existsb (bad_rule gp_none) raw_dup = true /\ parse_rules_hist gp_none raw_dup = POk [mkRule [] Accept].
Proof. split; reflexivity. Qed.

(* the same inputs on the repaired code *)
Theorem repaired_refuses_witnesses :
  (exists e, parse_rules gp_none raw_badre = PErr e) /\ (exists e, parse_rules gp_none raw_unterminated = PErr e) /\
  (exists e, parse_rules gp_none raw_lone_slash = PErr e) /\ (exists e, parse_rules gp_none raw_dup = PErr e).
Proof. repeat split; eexists; reflexivity. Qed.

Definition ex_re : re := RCat (RSet (CsChar 97)) (RStar (RAlt (RSet (CsChar 98)) (RSet (CsSet false [(48, 57)])))).
Definition ex_gp (s : text) : option re := if beq_text s (str "a(?:b|[0-9])*") then Some ex_re else None.
Definition ex_raw : list raw_rule :=
  [[(KStr (str "ACTION"), VStr (str "Accept")); (KStr (str "FromService"), VStr (str "unreach"))];
   [(KStr (str "Action"), VStr (str "reject")); (KStr (str "ToNode"), VStr (str "/a(?:b|[0-9])*/")); (KStr (str "toservice"), VStr (str "control"))];
   [(KStr (str "action"), VStr (str "DROP"))]].
Definition ex_rules : list prule :=
  [mkRule [(FromService, MLit (str "unreach"))] Accept;
   mkRule [(ToNode, MRe ex_re); (ToService, MLit (str "control"))] Reject;
   mkRule [] Drop].
Definition ex_pkt : pkt := mkPkt (str "n1") (str "work") (str "ab7b") (str "control").

Lemma ex_nonvacuous :
  existsb (bad_rule ex_gp) ex_raw = false /\ parse_rules ex_gp ex_raw = POk ex_rules /\
  decides ex_rules ex_pkt (Some (mkRule [(ToNode, MRe ex_re); (ToService, MLit (str "control"))] Reject)) /\
  handle ex_rules ex_pkt = DReject (Some (mkU (str "n1") (str "ab7b") (str "work") (str "control") problem_rejected)) /\
  node_handle (str "ab7b") ex_rules ex_pkt =
    [(mkPkt (str "ab7b") svc_unreach (str "n1") svc_unreach,
      Some (mkU (str "n1") (str "ab7b") (str "work") (str "control") problem_rejected))].
Proof.
  repeat split; try (vm_compute; reflexivity).
  apply DecLater.
  - intro H. apply rule_matchb_spec in H. vm_compute in H. discriminate.
  - apply DecHere. apply rule_matchb_spec. vm_compute. reflexivity.
Qed.

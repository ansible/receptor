(* Proofs/Flood.v — C06: routing knowledge never regresses; updates are applied and relayed at
   most once, never back; self-origin updates are never accepted.
   [handle_update] is taken apart once, in [handle_update_cases]: [handled] lists its six outcomes,
   each under the guards that lead to it, and the statements about one step are read off them. *)
From Coq Require Import Lia.
From Receptor Require Import Model.Flood.
Open Scope N_scope.

(* None is an origin the node does not know: below every pair.  The model's staleness test is
   [pair_le (Some (epoch, seq)) stored]. *)
Definition pair_le (a b : option (N * N)) : bool :=
  match a, b with
  | None, _ => true
  | Some _, None => false
  | Some x, Some y => lex_le x y
  end.

Lemma lex_le_spec a b :
  lex_le a b = true <-> fst a < fst b \/ (fst a = fst b /\ snd a <= snd b).
Proof. unfold lex_le. now rewrite orb_true_iff, andb_true_iff, N.ltb_lt, N.eqb_eq, N.leb_le. Qed.

Lemma lex_lt_spec a b :
  lex_lt a b = true <-> fst a < fst b \/ (fst a = fst b /\ snd a < snd b).
Proof. unfold lex_lt. now rewrite orb_true_iff, andb_true_iff, !N.ltb_lt, N.eqb_eq. Qed.

Lemma lex_le_refl p : lex_le p p = true.
Proof. apply lex_le_spec. lia. Qed.

Lemma lex_le_trans a b c : lex_le a b = true -> lex_le b c = true -> lex_le a c = true.
Proof. rewrite !lex_le_spec. lia. Qed.

Lemma lex_not_le_lt a b : lex_le a b = false -> lex_le b a = true.
Proof. rewrite <- not_true_iff_false, !lex_le_spec. lia. Qed.

Lemma lex_le_lt_false a b : lex_le a b = true -> lex_lt b a = false.
Proof. rewrite <- not_true_iff_false, lex_le_spec, lex_lt_spec. lia. Qed.

Lemma pair_le_refl a : pair_le a a = true.
Proof. destruct a; simpl; [apply lex_le_refl|reflexivity]. Qed.

Lemma pair_le_trans a b c : pair_le a b = true -> pair_le b c = true -> pair_le a c = true.
Proof.
  destruct a, b, c; simpl; try discriminate; try reflexivity. apply lex_le_trans.
Qed.

Lemma pair_le_total a b : pair_le a b = false -> pair_le b a = true.
Proof. destruct a, b; simpl; try discriminate; try reflexivity. apply lex_not_le_lt. Qed.

Lemma pair_le_Some P x :
  pair_le (Some P) x = true <-> exists p, x = Some p /\ lex_le P p = true.
Proof.
  destruct x as [p|]; simpl.
  - split; [eauto|]. now intros (p' & [= <-] & H).
  - split; [discriminate|]. now intros (p' & [=] & _).
Qed.

Definition info_of (st : nstate) (o : node) := aget o (ns_info st).

Lemma relay_obs_nil_iff acts : relay_obs acts = [] <-> forall c u, ~ In (Relay c u) acts.
Proof.
  induction acts as [|a r IH]; simpl; [split; auto|].
  destruct a as [to v| | |]; simpl.
  1: { split; [discriminate|]. intro H. destruct (H to v). now left. }
  all: rewrite IH; split; intros H c u;
    [intros [E|E]; [discriminate|exact (H c u E)] | intro E; apply (H c u); now right].
Qed.

(* an update as a node relays it: only the forwarder is rewritten *)
Definition with_fwd (f : node) (u : upd) : upd :=
  {| u_origin := u_origin u; u_id := u_id u; u_epoch := u_epoch u; u_seq := u_seq u;
     u_conns := u_conns u; u_fwd := f; u_susp := u_susp u |}.

Lemma with_fwd_same u : with_fwd (u_fwd u) u = u.
Proof. now destruct u. Qed.

Lemma in_relays st u x c u' : In (Relay c u') (relays st u x) <->
  u' = with_fwd (ns_self st) u /\ In c (ns_conns st) /\ c <> x.
Proof.
  unfold relays. rewrite in_map_iff. split.
  - intros [c' [E Hin]]. injection E as -> <-. apply filter_In in Hin as [H1 H2].
    repeat split; auto. intros ->. rewrite N.eqb_refl in H2. discriminate.
  - intros [-> [H1 H2]]. exists c. split; [reflexivity|]. apply filter_In. split; [exact H1|].
    now apply negb_true_iff, N.eqb_neq.
Qed.

Lemma relays_no_relay_obs_other st u recv :
  forall a, In a (relays st u recv) -> exists c u', a = Relay c u'.
Proof.
  unfold relays. intros a. rewrite in_map_iff. intros [c [E _]]. eauto.
Qed.

Lemma relay_after_requests (b1 b2 : bool) l c u' :
  In (Relay c u') ((if b1 then [ReqFlood] else []) ++ (if b2 then [ReqRebuild] else []) ++ l)
  <-> In (Relay c u') l.
Proof. destruct b1, b2; simpl; intuition discriminate. Qed.

Lemma relay_obs_after_requests (b1 b2 : bool) l :
  relay_obs ((if b1 then [ReqFlood] else []) ++ (if b2 then [ReqRebuild] else []) ++ l) = relay_obs l.
Proof. destruct b1, b2; reflexivity. Qed.

Definition foreign (st : nstate) (u : upd) : Prop :=
  u_origin u <> 0 /\ conns_pos (u_conns u) = true /\ u_origin u <> ns_self st.

Definition processed (st : nstate) (u : upd) info known : nstate :=
  set_state st info known (sadd (u_id u) (ns_seen st)) (ns_down st).

Definition notice_info (st : nstate) (u : upd) : amap (N * N) :=
  match aget (u_origin u) (ns_info st) with
  | Some (e, _) => if e =? u_susp u then aset (u_origin u) (u_epoch u, u_seq u) (ns_info st)
                   else ns_info st
  | None => ns_info st
  end.

Definition conns_changed (st : nstate) (u : upd) : bool :=
  negb (conns_equal (u_conns u) (aget (u_origin u) (ns_known st))).

Definition learned (st : nstate) (u : upd) : amap (amap N) :=
  if conns_changed st u
  then prune (ns_self st) (u_origin u) (conns_of (u_conns u))
             (aset (u_origin u) (conns_of (u_conns u)) (ns_known st))
  else ns_known st.

(* The guards of different outcomes exclude each other (those of [hu_ignored] overlap, with the
   same outcome).  The relays are written as [relays st u recv], not [relays st' u recv] as in the
   model: [relays] reads only ns_self and ns_conns, which no outcome changes. *)
Variant handled (st : nstate) (u : upd) (recv : node) : nstate * list action -> Prop :=
| hu_ignored :
    u_origin u = 0 \/ conns_pos (u_conns u) = false
    \/ (u_origin u = ns_self st
        /\ (u_epoch u = ns_epoch st \/ (u_susp u <> ns_epoch st /\ u_epoch u < ns_epoch st)))
    \/ (u_origin u <> ns_self st /\ mem_N (u_id u) (ns_seen st) = true) ->
    handled st u recv (st, [])
| hu_shutdown :
    u_origin u = ns_self st -> u_epoch u <> ns_epoch st -> u_susp u = ns_epoch st ->
    u_origin u <> 0 -> conns_pos (u_conns u) = true ->
    handled st u recv (set_state st (ns_info st) (ns_known st) (ns_seen st) true, [])
| hu_own_newer :
    u_origin u = ns_self st -> ns_epoch st < u_epoch u -> u_susp u <> ns_epoch st ->
    u_origin u <> 0 -> conns_pos (u_conns u) = true ->
    handled st u recv (st, match ns_conns st with [] => [] | _ => [OwnUpdate (u_epoch u)] end)
| hu_notice :
    foreign st u -> mem_N (u_id u) (ns_seen st) = false -> u_susp u <> 0 ->
    handled st u recv (processed st u (notice_info st u) (ns_known st), relays st u recv)
| hu_stale :
    foreign st u -> mem_N (u_id u) (ns_seen st) = false -> u_susp u = 0 ->
    pair_le (Some (u_epoch u, u_seq u)) (info_of st (u_origin u)) = true ->
    handled st u recv (processed st u (ns_info st) (ns_known st), [])
| hu_accepted :
    foreign st u -> mem_N (u_id u) (ns_seen st) = false -> u_susp u = 0 ->
    pair_le (Some (u_epoch u, u_seq u)) (info_of st (u_origin u)) = false ->
    handled st u recv
      (processed st u (aset (u_origin u) (u_epoch u, u_seq u) (ns_info st)) (learned st u),
       (if negb (amem (u_origin u) (ns_info st)) then [ReqFlood] else [])
       ++ (if conns_changed st u then [ReqRebuild] else []) ++ relays st u recv).

Lemma handle_update_cases st u recv : handled st u recv (handle_update st u recv).
Proof.
  unfold handle_update.
  destruct (N.eqb_spec (u_origin u) 0) as [E0|E0]; [apply hu_ignored; auto|].
  destruct (conns_pos (u_conns u)) eqn:Ec; cbn [negb]; [|apply hu_ignored; auto].
  destruct (N.eqb_spec (u_origin u) (ns_self st)) as [Es|Es].
  { destruct (N.eqb_spec (u_epoch u) (ns_epoch st)) as [Ee|Ee]; [apply hu_ignored; tauto|].
    destruct (N.eqb_spec (u_susp u) (ns_epoch st)) as [Ed|Ed]; [now apply (hu_shutdown st u recv)|].
    destruct (N.ltb_spec0 (ns_epoch st) (u_epoch u)) as [En|En]; [now apply hu_own_newer|].
    apply hu_ignored. right; right; left. split; [exact Es|]. right. split; [exact Ed|lia]. }
  destruct (mem_N (u_id u) (ns_seen st)) eqn:Em; [apply hu_ignored; tauto|].
  assert (F : foreign st u) by (repeat split; assumption).
  destruct (N.eqb_spec (u_susp u) 0) as [Ez|Ez]; cbn [negb].
  - change (match aget (u_origin u) (ns_info st) with
            | Some p => lex_le (u_epoch u, u_seq u) p | None => false end)
      with (pair_le (Some (u_epoch u, u_seq u)) (info_of st (u_origin u))).
    destruct (pair_le (Some (u_epoch u, u_seq u)) (info_of st (u_origin u))) eqn:El;
      [now apply (hu_stale st u recv)|now apply (hu_accepted st u recv)].
  - now apply (hu_notice st u recv).
Qed.

Lemma handle_update_self st u recv : ns_self (fst (handle_update st u recv)) = ns_self st.
Proof. destruct (handle_update_cases st u recv); reflexivity. Qed.

Lemma handle_update_conns st u recv : ns_conns (fst (handle_update st u recv)) = ns_conns st.
Proof. destruct (handle_update_cases st u recv); reflexivity. Qed.

Lemma handle_update_seen st u recv :
  (ns_seen (fst (handle_update st u recv)) = ns_seen st
   /\ relay_obs (snd (handle_update st u recv)) = [])
  \/ (mem_N (u_id u) (ns_seen st) = false
      /\ ns_seen (fst (handle_update st u recv)) = sadd (u_id u) (ns_seen st)).
Proof.
  destruct (handle_update_cases st u recv); cbn [fst snd]; auto.
  left. now destruct (ns_conns st).
Qed.

Lemma seen_after st u recv i :
  mem_N i (ns_seen (fst (handle_update st u recv))) = true -> i = u_id u \/ mem_N i (ns_seen st) = true.
Proof.
  destruct (handle_update_seen st u recv) as [[-> _]|[_ ->]]; [auto|].
  rewrite mem_N_sadd, orb_true_iff, N.eqb_eq. auto.
Qed.

Lemma handle_update_relays st u recv :
  relay_obs (snd (handle_update st u recv)) = []
  \/ relay_obs (snd (handle_update st u recv)) = relay_obs (relays st u recv).
Proof.
  destruct (handle_update_cases st u recv); cbn [snd]; auto.
  - left. now destruct (ns_conns st).
  - right. apply relay_obs_after_requests.
Qed.

(* the guards of [hu_accepted] leave no other outcome *)
Lemma handle_update_accepted st u recv :
  foreign st u -> mem_N (u_id u) (ns_seen st) = false -> u_susp u = 0 ->
  pair_le (Some (u_epoch u, u_seq u)) (info_of st (u_origin u)) = false ->
  handle_update st u recv =
  (processed st u (aset (u_origin u) (u_epoch u, u_seq u) (ns_info st)) (learned st u),
   (if negb (amem (u_origin u) (ns_info st)) then [ReqFlood] else [])
   ++ (if conns_changed st u then [ReqRebuild] else []) ++ relays st u recv).
Proof.
  intros (H0 & Hpos & Hself) Hseen Hs Hnew.
  destruct (handle_update_cases st u recv) as [Hi|Ho|Ho|_ _ Hn|_ _ _ Hst|]; [exfalso..|reflexivity].
  - (* ignored: each reason contradicts foreign or unseen *)
    destruct Hi as [Hi|[Hi|[[Hi _]|[_ Hi]]]]; congruence.
  - exact (Hself Ho).
  - exact (Hself Ho).
  - exact (Hn Hs).
  - congruence.
Qed.

Lemma relay_of_step st u recv c u' :
  In (Relay c u') (snd (handle_update st u recv)) ->
  In (Relay c u') (relays st u recv) /\ mem_N (u_id u) (ns_seen st) = false
  /\ ns_seen (fst (handle_update st u recv)) = sadd (u_id u) (ns_seen st).
Proof.
  destruct (handle_update_cases st u recv); cbn [fst snd]; try (intros []).
  - destruct (ns_conns st); [intros []|intros [E|[]]; discriminate].
  - auto.
  - rewrite relay_after_requests. auto.
Qed.

Theorem relay_never_back st u recv c u' :
  In (Relay c u') (snd (handle_update st u recv)) ->
  c <> recv /\ In c (ns_conns st) /\ u_fwd u' = ns_self st /\ u_id u' = u_id u
  /\ u_origin u' = u_origin u.
Proof.
  intro H. apply relay_of_step in H as [H _]. apply in_relays in H as (-> & Hc & Hne). now repeat split.
Qed.

(* the picture = knownNodeInfo + knownConnectionCosts *)
Definition same_picture (a b : nstate) : Prop := ns_info a = ns_info b /\ ns_known a = ns_known b.

Definition no_effect (st : nstate) (u : upd) (recv : node) : Prop :=
  same_picture (fst (handle_update st u recv)) st /\ relay_obs (snd (handle_update st u recv)) = [].

Lemma effect_only_if_fresh st u recv :
  no_effect st u recv
  \/ (foreign st u /\ mem_N (u_id u) (ns_seen st) = false
      /\ (u_susp u = 0 -> pair_le (Some (u_epoch u, u_seq u)) (info_of st (u_origin u)) = false)).
Proof.
  unfold no_effect. destruct (handle_update_cases st u recv); cbn [fst snd].
  - left. repeat split.
  - left. repeat split.
  - left. repeat split. now destruct (ns_conns st).
  - right. split; [assumption|]. split; [assumption|]. intro. contradiction.
  - left. repeat split.
  - right. auto.
Qed.

Theorem self_origin_never_accepted st u recv :
  u_origin u = ns_self st ->
  same_picture (fst (handle_update st u recv)) st /\ relay_obs (snd (handle_update st u recv)) = []
  /\ (u_epoch u = ns_epoch st -> handle_update st u recv = (st, [])).
Proof.
  intro Ho. rewrite <- and_assoc. split.
  - destruct (effect_only_if_fresh st u recv) as [H|((_ & _ & Hf) & _)]; [exact H|contradiction].
  - intro He. destruct (handle_update_cases st u recv) as [_|_ Hne _|_ Hlt|F _ _|F _ _ _|F _ _ _].
    1: reflexivity.
    1: contradiction.
    1: lia.
    all: destruct F as (_ & _ & F); contradiction.
Qed.

Lemma info_step st u recv o :
  u_susp u = 0 ->
  info_of (fst (handle_update st u recv)) o = info_of st o
  \/ (o = u_origin u /\ info_of (fst (handle_update st u recv)) o = Some (u_epoch u, u_seq u)
      /\ pair_le (Some (u_epoch u, u_seq u)) (info_of st o) = false).
Proof.
  intro Hs. destruct (handle_update_cases st u recv) as [| | |_ _ Hn| |_ _ _ Hnew]; cbn [fst]; auto.
  - contradiction.
  - unfold info_of. cbn [processed set_state ns_info].
    destruct (N.eq_dec o (u_origin u)) as [->|Hne].
    + right. rewrite aget_aset_same. auto.
    + left. now apply aget_aset_other.
Qed.

Theorem info_monotone_step st u recv o :
  u_susp u = 0 ->
  pair_le (info_of st o) (info_of (fst (handle_update st u recv)) o) = true.
Proof.
  intro Hs. destruct (info_step st u recv o Hs) as [->|(_ & -> & Hnew)].
  - apply pair_le_refl.
  - now apply pair_le_total.
Qed.

Lemma beq_costs_eq a : forall b, beq_costs a b = true -> a = b.
Proof.
  induction a as [|[k v] r IH]; intros [|[k' v'] r'] H; simpl in H; try discriminate; [reflexivity|].
  apply andb_true_iff in H as [H H3]. apply andb_true_iff in H as [H1 H2].
  apply N.eqb_eq in H1, H2. subst. f_equal. now apply IH.
Qed.

Lemma aget_prune self origin listed k c :
  aget c (prune self origin listed k) =
  match aget c k with
  | Some adj => Some (if (c =? self) || amem c listed then adj else adel origin adj)
  | None => None
  end.
Proof.
  induction k as [|[c' adj] r IH]; simpl; [reflexivity|].
  destruct (c' =? c) eqn:E; [|exact IH].
  apply N.eqb_eq in E. subst c'. reflexivity.
Qed.

(* the origin's row after an accepted update is what the update lists, except that a nil list for
   an origin without a row leaves it without one (reflect.DeepEqual holds nil equal to missing) *)
Lemma learned_origin_row st u :
  aget (u_origin u) (learned st u) = Some (conns_of (u_conns u))
  \/ (u_conns u = None /\ aget (u_origin u) (ns_known st) = None /\ learned st u = ns_known st).
Proof.
  unfold learned, conns_changed.
  destruct (conns_equal (u_conns u) (aget (u_origin u) (ns_known st))) eqn:Ec; cbn [negb].
  - (* not changed means: equal to what was stored *)
    unfold conns_equal in Ec.
    destruct (u_conns u) as [a|], (aget (u_origin u) (ns_known st)) as [b|]; try discriminate; auto.
    left. apply beq_costs_eq in Ec. now subst.
  - (* the row is written, and pruning leaves it as written: an origin that does not list itself
       has no entry for itself to delete *)
    left. rewrite aget_prune, aget_aset_same. f_equal.
    destruct ((u_origin u =? ns_self st) || amem (u_origin u) (conns_of (u_conns u))) eqn:Em; [reflexivity|].
    apply adel_notin. apply orb_false_iff in Em. tauto.
Qed.

Definition taken_over (self oo : node) (adjo : amap N) (known known' : amap (amap N)) : Prop :=
  aget oo known' = Some adjo /\
  forall o, o <> oo ->
    match aget o known with
    | Some adj => aget o known' = Some adj \/
                  (o <> self /\ amem o adjo = false /\ aget o known' = Some (adel oo adj))
    | None => aget o known' = None
    end.

Lemma learned_taken_over st u adjo :
  u_conns u = Some adjo -> amem (u_origin u) adjo = false ->
  taken_over (ns_self st) (u_origin u) adjo (ns_known st) (learned st u).
Proof.
  intros Hc Hnl. split.
  - destruct (learned_origin_row st u) as [H|(H & _)]; [now rewrite Hc in H|congruence].
  - intros o Ho. unfold learned. rewrite Hc. cbn [conns_of].
    destruct (conns_changed st u); [|destruct (aget o (ns_known st)); [now left|reflexivity]].
    rewrite aget_prune, aget_aset_other by assumption.
    destruct (aget o (ns_known st)) as [adj|]; [|reflexivity].
    destruct ((o =? ns_self st) || amem o adjo) eqn:Eb; [now left|].
    apply orb_false_iff in Eb as [Eb1 Eb2]. right. apply N.eqb_neq in Eb1. auto.
Qed.

(* the third alternative of the conclusion is never needed: there [conns_equal] makes the stored row
   equal to the listed one, which is the first alternative ([learned_origin_row]) *)
Theorem fresh_update_recorded st u recv :
  u_susp u = 0 -> u_origin u <> 0 -> conns_pos (u_conns u) = true -> u_origin u <> ns_self st ->
  mem_N (u_id u) (ns_seen st) = false ->
  pair_le (Some (u_epoch u, u_seq u)) (info_of st (u_origin u)) = false ->
  let st' := fst (handle_update st u recv) in
  info_of st' (u_origin u) = Some (u_epoch u, u_seq u)
  /\ (aget (u_origin u) (ns_known st') = Some (conns_of (u_conns u))
      \/ (u_conns u = None /\ aget (u_origin u) (ns_known st) = None /\ ns_known st' = ns_known st)
      \/ (exists a, u_conns u = Some a /\ conns_equal (Some a) (aget (u_origin u) (ns_known st)) = true
                    /\ ns_known st' = ns_known st)).
Proof.
  intros Hs H0 Hpos Hself Hseen Hnew.
  rewrite (handle_update_accepted st u recv (conj H0 (conj Hpos Hself)) Hseen Hs Hnew).
  unfold info_of. cbn [fst processed set_state ns_info ns_known].
  split; [apply aget_aset_same|]. destruct (learned_origin_row st u) as [H|H]; auto.
Qed.

Theorem notice_only_rewrites_named_epoch st u recv o :
  u_susp u <> 0 ->
  let st' := fst (handle_update st u recv) in
  ns_known st' = ns_known st /\
  (info_of st' o <> info_of st o ->
   o = u_origin u /\ exists s, info_of st o = Some (u_susp u, s)
                    /\ info_of st' o = Some (u_epoch u, u_seq u)).
Proof.
  intro Hs.
  destruct (handle_update_cases st u recv) as [| | | |_ _ Hz _|_ _ Hz _];
    unfold info_of; cbn [fst processed set_state ns_info ns_known].
  1-3: split; [reflexivity|congruence].
  2-3: contradiction.
  unfold notice_info. split; [reflexivity|].
  destruct (aget (u_origin u) (ns_info st)) as [[e s]|] eqn:Hp; [|congruence].
  destruct (N.eqb_spec e (u_susp u)) as [->|_]; [|congruence].
  destruct (N.eq_dec o (u_origin u)) as [->|Hne].
  - intros _. split; [reflexivity|]. exists s. rewrite Hp, aget_aset_same. auto.
  - rewrite aget_aset_other by assumption. congruence.
Qed.

Theorem own_row_untouched st u recv :
  aget (ns_self st) (ns_known (fst (handle_update st u recv))) = aget (ns_self st) (ns_known st).
Proof.
  destruct (handle_update_cases st u recv) as [| | | | |(_ & _ & Hself) _ _ _]; try reflexivity.
  cbn [fst processed set_state ns_known]. unfold learned.
  destruct (conns_changed st u); [|reflexivity].
  (* pruning spares the row of the node itself *)
  rewrite aget_prune, aget_aset_other by congruence.
  destruct (aget (ns_self st) (ns_known st)); [|reflexivity].
  now rewrite N.eqb_refl.
Qed.

Theorem conn_lost_keeps_knowledge st c :
  ns_info (conn_lost st c) = ns_info st /\ ns_seen (conn_lost st c) = ns_seen st.
Proof. split; reflexivity. Qed.

Lemma run_cons st e h :
  run st (e :: h) = (fst (run (fst (step st e)) h), snd (step st e) :: snd (run (fst (step st e)) h)).
Proof. cbn [run]. destruct (step st e) as [st' a]. cbn [fst snd]. now destruct (run st' h). Qed.

Lemma run_preserves (E : event -> Prop) (P : nstate -> Prop) :
  (forall st e, E e -> P st -> P (fst (step st e))) ->
  forall h st, Forall E h -> P st -> P (fst (run st h)).
Proof.
  intro Hstep. induction h as [|e h IH]; intros st Hall HP; [exact HP|].
  inversion Hall; subst. rewrite run_cons. apply IH; auto.
Qed.

Definition ordinary (e : event) : Prop :=
  match e with Recv u _ => u_susp u = 0 | Expire _ => True | Lost _ => True end.

Lemma expire_info st id : ns_info (expire st id) = ns_info st.
Proof. reflexivity. Qed.

Theorem flood_info_monotone h : forall st o,
  Forall ordinary h ->
  pair_le (info_of st o) (info_of (fst (run st h)) o) = true.
Proof.
  intros st o Hall.
  apply (run_preserves ordinary (fun st' => pair_le (info_of st o) (info_of st' o) = true));
    [|exact Hall|apply pair_le_refl].
  intros st' e He H. eapply pair_le_trans; [exact H|].
  destruct e as [u rc|id|c]; [exact (info_monotone_step st' u rc o He)|apply pair_le_refl..].
Qed.

Definition relays_id (x : N) (acts : list action) : bool :=
  existsb (fun a => match a with Relay _ u => u_id u =? x | _ => false end) acts.

Definition no_expire (x : N) (e : event) : Prop :=
  match e with Expire id => id <> x | Recv _ _ => True | Lost _ => True end.

Lemma relays_id_true x acts : relays_id x acts = true -> exists c u, In (Relay c u) acts /\ u_id u = x.
Proof.
  unfold relays_id. rewrite existsb_exists. intros [a [Hin Ha]].
  destruct a; try discriminate. apply N.eqb_eq in Ha. eauto.
Qed.

Lemma relay_marks_seen st e x :
  relays_id x (snd (step st e)) = true ->
  mem_N x (ns_seen st) = false /\ mem_N x (ns_seen (fst (step st e))) = true.
Proof.
  destruct e as [u rc|id|c]; [|discriminate..].
  intro H. apply relays_id_true in H as (c & u' & Hin & <-). cbn [step] in *.
  destruct (relay_of_step _ _ _ _ _ Hin) as (Hr & Hnew & ->). apply in_relays in Hr as [-> _].
  split; [exact Hnew|apply mem_sadd_same].
Qed.

Lemma seen_mono_step st e x :
  no_expire x e -> mem_N x (ns_seen st) = true -> mem_N x (ns_seen (fst (step st e))) = true.
Proof.
  intros Hne Hx. destruct e as [u rc|id|c]; cbn [step fst]; [| |exact Hx].
  - destruct (handle_update_seen st u rc) as [[-> _]|[_ ->]]; [exact Hx|now apply mem_sadd_mono].
  - rewrite mem_N_In in *. apply filter_In. split; [exact Hx|].
    now apply negb_true_iff, N.eqb_neq, not_eq_sym.
Qed.

Fixpoint count_relay_steps (x : N) (ass : list (list action)) : nat :=
  match ass with
  | [] => 0
  | a :: r => (if relays_id x a then 1 else 0) + count_relay_steps x r
  end.

Lemma relay_budget h : forall st x,
  Forall (no_expire x) h ->
  (count_relay_steps x (snd (run st h)) <= if mem_N x (ns_seen st) then 0 else 1)%nat.
Proof.
  induction h as [|e h IH]; intros st x Hall; [simpl; destruct (mem_N x (ns_seen st)); lia|].
  inversion Hall as [|? ? He Hh]; subst. rewrite run_cons. cbn [snd count_relay_steps].
  specialize (IH (fst (step st e)) x Hh).
  destruct (relays_id x (snd (step st e))) eqn:Er.
  - apply relay_marks_seen in Er as [-> Hafter]. rewrite Hafter in IH. lia.
  - pose proof (seen_mono_step st e x He) as Hm.
    destruct (mem_N x (ns_seen st)); [rewrite Hm in IH by reflexivity; lia|].
    destruct (mem_N x (ns_seen (fst (step st e)))); lia.
Qed.

Theorem relay_at_most_once h : forall st x,
  Forall (no_expire x) h ->
  (count_relay_steps x (snd (run st h)) <= 1)%nat.
Proof.
  intros st x Hall. pose proof (relay_budget h st x Hall) as H.
  destruct (mem_N x (ns_seen st)); lia.
Qed.

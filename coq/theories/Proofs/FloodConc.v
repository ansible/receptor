(* Proofs/FloodConc.v — with the atomic filter at most one thread per update ID gets through, for every
   number of threads, every assignment of IDs and every interleaving; exactly one when all have finished
   and the ID was new; none when it had been seen.
   All three follow from one count kept by every schedule ([counted]): the threads that got an ID
   through since the start are one if the ID has become seen since, and none otherwise. *)
From Coq Require Import Lia.
From Receptor Require Import Model.FloodConc.
Open Scope N_scope.

Lemma passes_cons x t r : passes x (t :: r) = ((if passed x t then 1 else 0) + passes x r)%nat.
Proof. unfold passes. simpl. destruct (passed x t); reflexivity. Qed.

Lemma passes_app x l1 l2 : passes x (l1 ++ l2) = (passes x l1 + passes x l2)%nat.
Proof. unfold passes. now rewrite filter_app, app_length. Qed.

Lemma passes_fresh x ids : passes x (fresh_threads ids) = 0%nat.
Proof.
  induction ids as [|i r IH]; [reflexivity|]. unfold fresh_threads in *. simpl. rewrite passes_cons, IH.
  unfold passed. simpl. now rewrite Bool.andb_false_r.
Qed.

Lemma step_at_spec step : forall ts k seen,
  step_at step k seen ts = (seen, ts)
  \/ exists l1 t l2, ts = l1 ++ t :: l2
       /\ step_at step k seen ts = (fst (step seen t), l1 ++ snd (step seen t) :: l2).
Proof.
  induction ts as [|t r IH]; intros k seen; [now left|]. destruct k as [|k]; cbn [step_at].
  - right. exists [], t, r. split; [reflexivity|]. now destruct (step seen t).
  - destruct (IH k seen) as [->|(l1 & t0 & l2 & -> & ->)]; [now left|].
    right. exists (t :: l1), t0, l2. split; reflexivity.
Qed.

Lemma step_at_atomic k seen ts :
  step_at step_atomic k seen ts = (seen, ts)
  \/ exists l1 i l2, ts = l1 ++ (i, Start) :: l2
       /\ (mem_N i seen = true
           /\ step_at step_atomic k seen ts = (seen, l1 ++ (i, Done false) :: l2)
           \/ mem_N i seen = false
              /\ step_at step_atomic k seen ts = (sadd i seen, l1 ++ (i, Done true) :: l2)).
Proof.
  destruct (step_at_spec step_atomic ts k seen) as [E|(l1 & [i p] & l2 & -> & E)]; [now left|].
  rewrite E. unfold step_atomic. cbn [fst snd].
  destruct p; [|now left..]. right. exists l1, i, l2. split; [reflexivity|].
  destruct (mem_N i seen); [left|right]; now split.
Qed.

Lemma run_sched_preserves step (P : list N -> list thread -> Prop) :
  (forall k seen ts, P seen ts -> P (fst (step_at step k seen ts)) (snd (step_at step k seen ts))) ->
  forall sched seen ts, P seen ts ->
    P (fst (run_sched step seen ts sched)) (snd (run_sched step seen ts sched)).
Proof.
  intro Hstep. induction sched as [|k sched IH]; intros seen ts H; cbn [run_sched]; [exact H|].
  specialize (Hstep k seen ts H). destruct (step_at step k seen ts). now apply IH.
Qed.

Definition counted (seen0 : list N) (ts0 : list thread) (seen : list N) (ts : list thread) : Prop :=
  map fst ts = map fst ts0
  /\ forall x, (mem_N x seen0 = true -> mem_N x seen = true)
            /\ passes x ts
               = (passes x ts0 + if mem_N x seen0 then 0 else if mem_N x seen then 1 else 0)%nat.

Lemma counted_start seen ts : counted seen ts seen ts.
Proof. split; [reflexivity|]. intro x. split; [auto|]. destruct (mem_N x seen); lia. Qed.

Lemma counted_step seen0 ts0 k seen ts :
  counted seen0 ts0 seen ts ->
  counted seen0 ts0 (fst (step_at step_atomic k seen ts)) (snd (step_at step_atomic k seen ts)).
Proof.
  intros [Hids Hc].
  destruct (step_at_atomic k seen ts) as [->|(l1 & i & l2 & -> & [[Hi ->]|[Hi ->]])]; cbn [fst snd].
  - now split.
  - (* blocked: a thread at Start does not count, and neither does one that is Done false *)
    split; [now rewrite <- Hids, !map_app|]. intro x. destruct (Hc x) as [Hm Hp].
    split; [exact Hm|]. rewrite <- Hp, !passes_app, !passes_cons.
    unfold passed. cbn [snd]. now rewrite !Bool.andb_false_r.
  - (* through: i was not seen, so it was new and no thread had got it through; now one has *)
    split; [now rewrite <- Hids, !map_app|]. intro x. destruct (Hc x) as [Hm Hp].
    rewrite passes_app, passes_cons in *. unfold passed in *. cbn [fst snd] in *.
    rewrite Bool.andb_false_r in Hp. rewrite Bool.andb_true_r, mem_N_sadd, (N.eqb_sym x i).
    destruct (N.eqb_spec i x) as [<-|_]; cbn [orb]; [|now split].
    split; [reflexivity|]. destruct (mem_N i seen0); [now rewrite Hm in Hi|]. rewrite Hi in Hp. lia.
Qed.

Lemma run_sched_counted sched seen ts :
  counted seen ts (fst (run_sched step_atomic seen ts sched)) (snd (run_sched step_atomic seen ts sched)).
Proof.
  apply (run_sched_preserves step_atomic (counted seen ts) (counted_step seen ts)), counted_start.
Qed.

Lemma atomic_seen_never_passes ts seen sched x :
  mem_N x seen = true ->
  passes x (snd (run_sched step_atomic seen ts sched)) = passes x ts.
Proof.
  intro M. destruct (run_sched_counted sched seen ts) as [_ H]. destruct (H x) as [_ ->].
  rewrite M. lia.
Qed.

Definition done_seen (seen : list N) (ts : list thread) : Prop :=
  forall t b, In t ts -> snd t = Done b -> mem_N (fst t) seen = true.

Lemma in_replaced {A} (x y z : A) l1 l2 : In x (l1 ++ y :: l2) -> x = y \/ In x (l1 ++ z :: l2).
Proof. rewrite !in_app_iff. cbn [In]. intuition auto. Qed.

Lemma done_seen_step k seen ts :
  done_seen seen ts ->
  done_seen (fst (step_at step_atomic k seen ts)) (snd (step_at step_atomic k seen ts)).
Proof.
  intro D.
  destruct (step_at_atomic k seen ts) as [->|(l1 & i & l2 & -> & [[Hi ->]|[Hi ->]])];
    cbn [fst snd]; [exact D| |]; intros t b Ht Hb;
    apply (in_replaced _ _ (i, Start)) in Ht as [->|Hold].
  - exact Hi.
  - exact (D t b Hold Hb).
  - apply mem_sadd_same.
  - apply mem_sadd_mono. exact (D t b Hold Hb).
Qed.

Lemma atomic_exactly_once ids seen sched x :
  mem_N x seen = false -> In x ids ->
  all_done (snd (run_sched step_atomic seen (fresh_threads ids) sched)) = true ->
  passes x (snd (run_sched step_atomic seen (fresh_threads ids) sched)) = 1%nat.
Proof.
  intros M I A.
  destruct (run_sched_counted sched seen (fresh_threads ids)) as [Hids H]. destruct (H x) as [_ ->].
  rewrite passes_fresh, M.
  assert (D : done_seen seen (fresh_threads ids)).
  { intros t b Ht Hb. apply in_map_iff in Ht as (i & <- & _). discriminate. }
  apply (run_sched_preserves step_atomic done_seen done_seen_step sched) in D.
  (* the thread that carries x has finished, so x is seen *)
  assert (In x (map fst (snd (run_sched step_atomic seen (fresh_threads ids) sched)))) as Ix.
  { rewrite Hids. unfold fresh_threads. rewrite map_map. cbn [fst]. now rewrite map_id. }
  apply in_map_iff in Ix as (t & <- & It).
  unfold all_done in A. rewrite forallb_forall in A. specialize (A t It).
  destruct (snd t) as [| |b] eqn:P; try discriminate.
  now rewrite (D t b It P).
Qed.


(* Proofs/FloodOrder.v — C06: whatever the delivery order, the newest update wins.  For every history of
   genuine ordinary updates with distinct fresh IDs (any order, from any neighbours), the pair the node
   ends up recording for an origin is at least every delivered pair of that origin, and it is the initial
   pair or one of the delivered ones: so for a new origin it is exactly the maximum.  Together with the
   linearizability check of the harness (Model/FloodCases.v [seq_check]) this covers concurrent delivery
   of different updates of one origin. *)
From Receptor Require Import Model.Flood Proofs.Flood.
Open Scope N_scope.

Definition genuine (self : node) (u : upd) : Prop :=
  u_susp u = 0 /\ u_origin u <> 0 /\ conns_pos (u_conns u) = true /\ u_origin u <> self.

Lemma delivered_is_covered st u recv :
  genuine (ns_self st) u -> mem_N (u_id u) (ns_seen st) = false ->
  pair_le (Some (u_epoch u, u_seq u)) (info_of (fst (handle_update st u recv)) (u_origin u)) = true.
Proof.
  intros (Hs & H0 & Hp & Hself) Hseen.
  destruct (pair_le (Some (u_epoch u, u_seq u)) (info_of st (u_origin u))) eqn:E.
  - eapply pair_le_trans; [exact E|]. now apply info_monotone_step.
  - destruct (fresh_update_recorded st u recv Hs H0 Hp Hself Hseen E) as [R _].
    rewrite R. apply pair_le_refl.
Qed.

Definition recvs (h : list (upd * node)) : list event := map (fun x => Recv (fst x) (snd x)) h.

Lemma run_self h : forall st, ns_self (fst (run st (recvs h))) = ns_self st.
Proof.
  intro st. apply (run_preserves (fun _ => True) (fun st' => ns_self st' = ns_self st));
    [|now apply Forall_forall|reflexivity].
  intros st' e _ <-. destruct e; [apply handle_update_self|reflexivity..].
Qed.

Lemma recvs_ordinary h : Forall (fun x => u_susp (fst x) = 0) h -> Forall ordinary (recvs h).
Proof. induction 1; constructor; auto. Qed.

Theorem newest_wins h : forall st,
  Forall (fun x => genuine (ns_self st) (fst x)) h ->
  NoDup (map (fun x => u_id (fst x)) h) ->
  (forall x, In x h -> mem_N (u_id (fst x)) (ns_seen st) = false) ->
  forall x, In x h ->
    pair_le (Some (u_epoch (fst x), u_seq (fst x))) (info_of (fst (run st (recvs h))) (u_origin (fst x))) = true.
Proof.
  induction h as [|[u r] h IH]; intros st Hg Hnd Hfresh x Hin; [destruct Hin|].
  inversion Hg as [|? ? Hgu Hgr]; subst. inversion Hnd as [|? ? Hni Hnd']; subst.
  change (recvs ((u, r) :: h)) with (Recv u r :: recvs h). rewrite run_cons. cbn [fst step].
  destruct Hin as [<-|Hin].
  - (* covered right after its own delivery, and from there the pair only moves forward *)
    eapply pair_le_trans;
      [apply (delivered_is_covered st u r Hgu); apply (Hfresh (u, r)); now left|].
    apply flood_info_monotone, recvs_ordinary.
    eapply Forall_impl; [|exact Hgr]. intros y Hy. apply Hy.
  - apply IH; [now rewrite handle_update_self|exact Hnd'| |exact Hin].
    (* the IDs still to come stay unseen: they differ from u's *)
    intros y Hy. destruct (mem_N (u_id (fst y)) (ns_seen (fst (handle_update st u r)))) eqn:M; [|reflexivity].
    apply seen_after in M as [M|M].
    + exfalso. apply Hni. cbn [fst]. rewrite <- M. now apply (in_map (fun z => u_id (fst z))).
    + rewrite (Hfresh y (or_intror Hy)) in M. discriminate.
Qed.

Theorem final_pair_is_delivered h : forall st o,
  Forall (fun x => u_susp (fst x) = 0) h ->
  info_of (fst (run st (recvs h))) o = info_of st o
  \/ exists x, In x h /\ u_origin (fst x) = o
               /\ info_of (fst (run st (recvs h))) o = Some (u_epoch (fst x), u_seq (fst x)).
Proof.
  induction h as [|[u r] h IH]; intros st o Hs; [now left|].
  inversion Hs as [|? ? Hsu Hsr]; subst.
  change (recvs ((u, r) :: h)) with (Recv u r :: recvs h). rewrite run_cons. cbn [fst step].
  destruct (IH (fst (handle_update st u r)) o Hsr) as [->|(x & Hx & Ho & Hi)].
  - destruct (info_step st u r o Hsu) as [H|(Ho & H & _)]; [now left|].
    right. exists (u, r). split; [now left|]. split; [now symmetry|exact H].
  - right. exists x. split; [now right|]. auto.
Qed.

Corollary new_origin_any_order h st o :
  Forall (fun x => genuine (ns_self st) (fst x)) h ->
  NoDup (map (fun x => u_id (fst x)) h) ->
  (forall x, In x h -> mem_N (u_id (fst x)) (ns_seen st) = false) ->
  (forall x, In x h -> u_origin (fst x) = o) ->
  info_of st o = None -> h <> [] ->
  exists x, In x h /\ info_of (fst (run st (recvs h))) o = Some (u_epoch (fst x), u_seq (fst x))
            /\ forall y, In y h -> lex_le (u_epoch (fst y), u_seq (fst y)) (u_epoch (fst x), u_seq (fst x)) = true.
Proof.
  intros Hg Hnd Hfresh Ho Hnone Hne.
  assert (Hs : Forall (fun x => u_susp (fst x) = 0) h).
  { eapply Forall_impl; [|exact Hg]. intros y Hy. apply Hy. }
  pose proof (newest_wins h st Hg Hnd Hfresh) as Hw.
  destruct (final_pair_is_delivered h st o Hs) as [H|(x & Hx & Hxo & Hi)].
  - exfalso. destruct h as [|y h']; [congruence|].
    specialize (Hw y (or_introl eq_refl)). rewrite (Ho y (or_introl eq_refl)), H, Hnone in Hw. discriminate.
  - exists x. split; [exact Hx|]. split; [exact Hi|]. intros y Hy.
    specialize (Hw y Hy). rewrite (Ho y Hy), Hi in Hw. exact Hw.
Qed.


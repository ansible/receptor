(* Proofs/FloodWorld.v — flooding terminates: in a mesh where no new updates are issued, every
   execution (any delivery order, any loss) is finite, and the number of relays sent is at most
   the sum of the node degrees per update ID. *)
From Coq Require Import PeanoNat Lia.
From Receptor Require Import Model.FloodWorld Proofs.Flood Proofs.Mesh.
Open Scope N_scope.

Lemma nodes_weight_update ids (ns : list nstate) : forall k st st',
  nth_error ns k = Some st ->
  (nodes_weight ids (update_nth k st' ns) + weight ids st = nodes_weight ids ns + weight ids st')%nat.
Proof.
  induction ns as [|s r IH]; intros [|k] st st' H; simpl in *; try discriminate.
  - inversion H; subst. lia.
  - specialize (IH k st st' H). lia.
Qed.

Lemma unseen_sadd ids st st' x :
  NoDup ids -> In x ids -> mem_N x (ns_seen st) = false -> ns_seen st' = sadd x (ns_seen st) ->
  (unseen ids st' + 1 = unseen ids st)%nat.
Proof.
  intros Hnd Hin Hx Hs. unfold unseen. rewrite Hs.
  induction ids as [|y r IH]; [destruct Hin|].
  inversion Hnd as [|? ? Hny Hnd']; subst. cbn [filter]. rewrite mem_N_sadd.
  destruct (N.eqb_spec y x) as [->|Hne].
  - (* x itself; it does not occur again, so the rest is judged as before *)
    rewrite Hx. cbn [orb negb length].
    rewrite (filter_ext_in _ (fun z => negb (mem_N z (ns_seen st))) r); [lia|].
    intros z Hz. rewrite mem_N_sadd. destruct (N.eqb_spec z x); [congruence|reflexivity].
  - destruct Hin as [E|Hin]; [congruence|]. specialize (IH Hnd' Hin).
    cbn [orb]. destruct (mem_N y (ns_seen st)); cbn [negb length]; lia.
Qed.

Lemma relay_msgs_len self acts : length (relay_msgs self acts) = length (relay_obs acts).
Proof.
  unfold relay_msgs, relay_obs. induction acts as [|a r IH]; simpl; [reflexivity|].
  destruct a; simpl; congruence.
Qed.

Lemma relays_len st u recv : (length (relay_obs (relays st u recv)) <= length (ns_conns st))%nat.
Proof.
  unfold relays. induction (ns_conns st) as [|c r IH]; simpl; [lia|].
  destruct (negb (c =? recv)); simpl; lia.
Qed.

Lemma step_relays_bound st u recv :
  (length (relay_obs (snd (handle_update st u recv))) <= length (ns_conns st))%nat.
Proof.
  destruct (handle_update_relays st u recv) as [->| ->]; [apply le_0_n|apply relays_len].
Qed.

(* one node step pays for its relays out of its own weight *)
Lemma node_step_weight ids st u recv :
  NoDup ids -> In (u_id u) ids ->
  (weight ids (fst (handle_update st u recv)) + length (relay_obs (snd (handle_update st u recv)))
   <= weight ids st)%nat.
Proof.
  intros Hnd Hin. unfold weight. rewrite handle_update_conns.
  destruct (handle_update_seen st u recv) as [[Hs ->]|[Hnew Hs]].
  - unfold unseen. rewrite Hs. cbn [length]. lia.
  - pose proof (unseen_sadd ids st _ (u_id u) Hnd Hin Hnew Hs).
    pose proof (step_relays_bound st u recv). rewrite <- H, Nat.mul_add_distr_l. lia.
Qed.

Lemma relay_msgs_ids self acts m :
  In m (relay_msgs self acts) -> exists c, In (Relay c (m_upd m)) acts.
Proof.
  unfold relay_msgs. rewrite in_flat_map. intros [a [Ha Hm]].
  destruct a; simpl in Hm; try tauto. destruct Hm as [<-|[]]. simpl. eauto.
Qed.

Lemma wstep_potential ids w l w' n :
  flight_ids_in ids w -> wstep w l = Some (w', n) ->
  flight_ids_in ids w'
  /\ (potential ids w' + 1 <= potential ids w)%nat
  /\ (nodes_weight ids (w_nodes w') + n <= nodes_weight ids (w_nodes w))%nat.
Proof.
  intros [Hnd Hfl] Hstep.
  (* either label takes message number k out of the network *)
  assert (Hrest : forall k m, nth_error (w_flight w) k = Some m ->
            (length (remove_nth k (w_flight w)) + 1 = length (w_flight w))%nat
            /\ forall m', In m' (remove_nth k (w_flight w)) -> In (u_id (m_upd m')) ids).
  { intros k m Em. split; [exact (remove_nth_len _ _ _ Em)|].
    intros m' Hm'. eapply Hfl, remove_nth_In, Hm'. }
  unfold potential. destruct l as [k|k]; simpl in Hstep;
    destruct (nth_error (w_flight w) k) as [m|] eqn:Em; try discriminate;
    destruct (Hrest k m Em) as [Hlen Hin].
  - destruct (nth_error (w_nodes w) (N.to_nat (m_to m))) as [st|] eqn:En.
    + (* delivered to node st: its relays carry the delivered ID and are paid for by its weight *)
      pose proof (node_step_weight ids st (m_upd m) (m_from m) Hnd (Hfl m (nth_error_In _ _ Em))) as Hw.
      assert (Hid : forall c u', In (Relay c u') (snd (handle_update st (m_upd m) (m_from m))) ->
                                 u_id u' = u_id (m_upd m)).
      { intros c u' H. apply relay_never_back in H. tauto. }
      destruct (handle_update st (m_upd m) (m_from m)) as [st' acts]. cbn [fst snd] in *.
      inversion Hstep; subst; clear Hstep. cbn [w_nodes w_flight].
      pose proof (nodes_weight_update ids (w_nodes w) _ st st' En) as Hu.
      rewrite app_length, relay_msgs_len. repeat split; [exact Hnd| |lia..].
      intros m' Hm'. apply in_app_or in Hm' as [Hm'|Hm']; [now apply Hin|].
      apply relay_msgs_ids in Hm' as [c Hc]. rewrite (Hid _ _ Hc). apply Hfl, (nth_error_In _ _ Em).
    + inversion Hstep; subst. cbn [w_nodes w_flight]. repeat split; auto; lia.
  - inversion Hstep; subst. cbn [w_nodes w_flight]. repeat split; auto; lia.
Qed.

Theorem flooding_terminates ids : forall ls w w' n,
  flight_ids_in ids w -> wrun w ls = Some (w', n) ->
  (length ls + potential ids w' <= potential ids w)%nat
  /\ (n + nodes_weight ids (w_nodes w') <= nodes_weight ids (w_nodes w))%nat
  /\ flight_ids_in ids w'.
Proof.
  induction ls as [|l r IH]; intros w w' n Hinv Hrun; simpl in Hrun.
  - inversion Hrun; subst. cbn [length]. split; [lia|]. split; [lia|]. exact Hinv.
  - destruct (wstep w l) as [[w1 n1]|] eqn:Es; [|discriminate].
    destruct (wrun w1 r) as [[w2 n2]|] eqn:Er; [|discriminate].
    inversion Hrun; subst; clear Hrun.
    destruct (wstep_potential ids w l w1 n1 Hinv Es) as [Hinv1 [Hp Hn]].
    destruct (IH w1 w' n2 Hinv1 Er) as [Hp2 [Hn2 Hinv2]].
    cbn [length]. split; [lia|]. split; [lia|]. exact Hinv2.
Qed.

(* when nothing is enabled any more the network is empty *)
Lemma stuck_iff_empty w : (forall l, wstep w l = None) <-> w_flight w = [].
Proof.
  split.
  - intro H. destruct (w_flight w) as [|m r] eqn:E; [reflexivity|].
    specialize (H (Drop 0)). simpl in H. rewrite E in H. discriminate.
  - intros E l. destruct l as [k|k]; simpl; rewrite E; destruct k; reflexivity.
Qed.

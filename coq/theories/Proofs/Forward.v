(* Proofs/Forward.v — lemmas about the forwarding model (Model/Forward.v): hop bound, notices,
   who may receive a datagram, reachability along next-hop chains, ping and traceroute.
   What holds whatever the tables say rests on [route_walk_shape]: the events a datagram causes
   are at most h forwards followed by exactly one event that ends its road.  What holds along a
   route rests on [chain_walk], the same shape with the forwards and the closing event named. *)
From Coq Require Import PeanoNat.
From Receptor Require Import Model.Forward.
Open Scope N_scope.

Definition all_forward (fs : list event) : Prop := Forall (fun x => is_forward x = true) fs.

(* an observation that does not see a forward event does not see a whole prefix of them *)
Lemma skip_forwards {A} (f : list event -> A) fs t : all_forward fs ->
  (forall a n m r, f (EForward a n m :: r) = f r) -> f (fs ++ t) = f t.
Proof.
  intros F Hf. induction F as [|x l Hx _ IH]; [reflexivity|].
  destruct x; try discriminate. cbn [app]. rewrite Hf. exact IH.
Qed.

Lemma count_forward_app a b : count_forward (a ++ b) = (count_forward a + count_forward b)%nat.
Proof. unfold count_forward. rewrite filter_app, app_length. reflexivity. Qed.

Lemma count_deliver_app a b : count_deliver (a ++ b) = (count_deliver a + count_deliver b)%nat.
Proof. unfold count_deliver. rewrite filter_app, app_length. reflexivity. Qed.

Lemma notices_app w a b : notices w (a ++ b) = notices w a ++ notices w b.
Proof.
  induction a as [|e a IH]; cbn [app notices]; [reflexivity|].
  destruct (notice_of w e); cbn [app]; rewrite IH; reflexivity.
Qed.

Lemma count_forward_all fs : all_forward fs -> count_forward fs = length fs.
Proof.
  unfold count_forward. induction 1 as [|x l Hx _ IH]; [reflexivity|].
  cbn [filter]. rewrite Hx. cbn [length]. rewrite IH. reflexivity.
Qed.

Lemma count_forward_shape fs e : all_forward fs -> is_forward e = false ->
  count_forward (fs ++ [e]) = length fs.
Proof.
  intros F T. rewrite count_forward_app, (count_forward_all fs F).
  unfold count_forward. cbn [filter]. rewrite T. apply Nat.add_0_r.
Qed.

Lemma count_deliver_0 n m' t : count_deliver t = 0%nat -> ~ In (EDeliver n m') t.
Proof.
  unfold count_deliver. intros Z H. apply length_zero_iff_nil in Z.
  assert (H' : In (EDeliver n m') (filter is_deliver t)) by (apply filter_In; split; [exact H|reflexivity]).
  rewrite Z in H'. exact H'.
Qed.

Definition delivered (t : list event) : bool := existsb is_deliver t.

Definition plain_svc (s : bytes) : bool := negb (beq_bytes s svc_ping) && negb (beq_bytes s svc_unreach).

Lemma plain_svc_spec s : plain_svc s = true ->
  beq_bytes s svc_ping = false /\ beq_bytes s svc_unreach = false.
Proof.
  unfold plain_svc. intro P. apply andb_true_iff in P as [P1 P2].
  split; apply negb_true_iff; assumption.
Qed.

Lemma local_dispatch_ping w a m : m_tsvc m = svc_ping -> local_dispatch w a m = EPing a m.
Proof. intro E. unfold local_dispatch. rewrite E. reflexivity. Qed.

Lemma local_dispatch_unreach w a m : m_tsvc m = svc_unreach -> local_dispatch w a m = EUnreach a m.
Proof. intro E. unfold local_dispatch. rewrite E. reflexivity. Qed.

Lemma local_dispatch_plain w a m : plain_svc (m_tsvc m) = true ->
  local_dispatch w a m = if w_listen w a (m_tsvc m) then EDeliver a m else EUnknown a m.
Proof.
  intro P. destruct (plain_svc_spec _ P) as [P1 P2]. unfold local_dispatch. rewrite P1, P2. reflexivity.
Qed.

Lemma local_dispatch_not_forward w a m : is_forward (local_dispatch w a m) = false.
Proof.
  unfold local_dispatch.
  destruct (beq_bytes (m_tsvc m) svc_ping); [reflexivity|].
  destruct (beq_bytes (m_tsvc m) svc_unreach); [reflexivity|].
  destruct (w_listen w a (m_tsvc m)); reflexivity.
Qed.

Lemma local_dispatch_deliver w a m n m' : local_dispatch w a m = EDeliver n m' ->
  n = a /\ m' = m /\ w_listen w a (m_tsvc m) = true.
Proof.
  unfold local_dispatch.
  destruct (beq_bytes (m_tsvc m) svc_ping); [discriminate|].
  destruct (beq_bytes (m_tsvc m) svc_unreach); [discriminate|].
  destruct (w_listen w a (m_tsvc m)); [|discriminate].
  intro E. injection E as <- <-. repeat split.
Qed.

(* the events that end the road of datagram m: handled at its destination, or given up on *)
Inductive walk_end (w : world) (m : msg) : event -> Prop :=
| we_local k : walk_end w m (local_dispatch w (m_to m) (set_hops m k))
| we_expired a : walk_end w m (EExpired a (set_hops m 0))
| we_noroute a k : walk_end w m (ENoRoute a (set_hops m k))
| we_noconn a k nx : walk_end w m (ENoConn a (set_hops m k) nx)
| we_dropped a k : walk_end w m (EDropped a (set_hops m k)).

Definition shaped (w : world) (m : msg) (h : nat) (t : list event) : Prop :=
  exists fs e, t = fs ++ [e] /\ all_forward fs /\ (length fs <= h)%nat /\ walk_end w m e.

Lemma shaped_end w m h e : walk_end w m e -> shaped w m h [e].
Proof. intro En. exists [], e. repeat split; [constructor|apply Nat.le_0_l|exact En]. Qed.

Lemma shaped_forward w m h a n m' t : shaped w m h t -> shaped w m (S h) (EForward a n m' :: t).
Proof.
  intros (fs & e & -> & F & L & En). exists (EForward a n m' :: fs), e.
  repeat split; [constructor; [reflexivity|exact F]|apply le_n_S, L|exact En].
Qed.

(* the one induction on the hop budget: the case analysis of handleMessageData / forwardMessage *)
Lemma route_walk_shape w m h : forall a, shaped w m h (route_walk w a m h).
Proof.
  induction h as [|h IH]; intro a; cbn [route_walk]; destruct (beq_bytes (m_to m) a) eqn:B.
  - apply beq_bytes_eq in B. subst a. apply shaped_end, we_local.
  - apply shaped_end, we_expired.
  - apply beq_bytes_eq in B. subst a. apply shaped_end, we_local.
  - destruct (w_route w a (m_to m)) as [nx|]; [|apply shaped_end, we_noroute].
    destruct (w_conn w a nx); [|apply shaped_end, we_noconn].
    apply shaped_forward.
    destruct (w_knows w nx (m_from m) && w_knows w nx (m_to m)); [apply IH|apply shaped_end, we_dropped].
Qed.

Lemma walk_end_not_forward w m e : walk_end w m e -> is_forward e = false.
Proof. intros [k|a|a k|a k nx|a k]; [apply local_dispatch_not_forward|reflexivity..]. Qed.

Lemma walk_end_deliver w m n m' : walk_end w m (EDeliver n m') ->
  n = m_to m /\ (exists k, m' = set_hops m k) /\ w_listen w n (m_tsvc m) = true.
Proof.
  intro H. inversion H as [k E| | | |].
  apply local_dispatch_deliver in E as (-> & -> & Li). split; [reflexivity|]. split; [exists k; reflexivity|exact Li].
Qed.

Lemma mk_notice_is_notice w a p m : is_notice (mk_notice w a p m) = true.
Proof. unfold is_notice, mk_notice. cbn [m_fsvc m_tsvc]. rewrite beq_bytes_refl. reflexivity. Qed.

Lemma notice_of_is_notice w e n nm : notice_of w e = Some (n, nm) -> is_notice nm = true.
Proof.
  destruct e; cbn [notice_of]; try discriminate.
  - destruct (beq_bytes (m_from m) at_); [discriminate|].
    intro E. injection E as _ <-. apply mk_notice_is_notice.
  - destruct (beq_bytes (m_fsvc m) svc_unreach); [discriminate|].
    intro E. injection E as _ <-. apply mk_notice_is_notice.
Qed.

(* a notice ends without a notice of its own, and is never handed to a listener *)
Lemma walk_end_of_notice w m e : is_notice m = true -> walk_end w m e ->
  notice_of w e = None /\ is_deliver e = false.
Proof.
  unfold is_notice. intro H. apply andb_true_iff in H as [Hf Ht]. apply beq_bytes_eq in Ht.
  intros [k|a|a k|a k nx|a k]; try (split; reflexivity).
  - rewrite local_dispatch_unreach by exact Ht. split; reflexivity.
  - cbn [notice_of set_hops m_fsvc]. rewrite Hf. split; reflexivity.
Qed.

(* what the notice caused by the last event of a walk causes in turn *)
Definition notice_walk (w : world) (e : event) : list event :=
  match notice_of w e with
  | Some (n, nm) => route_walk w n nm (w_maxhops w)
  | None => []
  end.

Lemma walk_split w a m h fs e : route_walk w a m h = fs ++ [e] -> all_forward fs ->
  walk w a m h = route_walk w a m h ++ notice_walk w e.
Proof.
  intros E F. unfold walk, notice_walk. apply f_equal.
  rewrite E, (skip_forwards (notices w) fs _ F) by reflexivity. cbn [notices].
  destruct (notice_of w e) as [[n nm]|]; [|reflexivity].
  cbn [flat_map fst snd]. rewrite app_nil_r. reflexivity.
Qed.

Lemma notice_walk_quiet w e :
  (count_forward (notice_walk w e) <= w_maxhops w)%nat /\
  notices w (notice_walk w e) = [] /\ count_deliver (notice_walk w e) = 0%nat.
Proof.
  unfold notice_walk. destruct (notice_of w e) as [[n nm]|] eqn:N.
  2:{ repeat split. apply Nat.le_0_l. }
  destruct (route_walk_shape w nm (w_maxhops w) n) as (gs & e' & -> & G & L & En).
  destruct (walk_end_of_notice w nm e' (notice_of_is_notice w e n nm N) En) as [N' D'].
  rewrite (count_forward_shape gs e' G (walk_end_not_forward w nm e' En)).
  rewrite (skip_forwards (notices w) gs _ G), (skip_forwards count_deliver gs _ G) by reflexivity.
  unfold count_deliver. cbn [notices filter]. rewrite N', D'. repeat split. exact L.
Qed.

(* C10, whatever the tables say: the total traffic of one send is at most h forwards, plus at
   most maxhops for the one notice *)
Theorem hop_bound w a m h :
  (count_forward (route_walk w a m h) <= h)%nat /\
  (length (notices w (route_walk w a m h)) <= 1)%nat /\
  (count_forward (walk w a m h) <= h + w_maxhops w)%nat.
Proof.
  destruct (route_walk_shape w m h a) as (fs & e & E & F & L & En).
  assert (B : (count_forward (route_walk w a m h) <= h)%nat).
  { rewrite E, (count_forward_shape fs e F (walk_end_not_forward w m e En)). exact L. }
  split; [exact B|]. split.
  - rewrite E, (skip_forwards (notices w) fs _ F) by reflexivity. cbn [notices].
    destruct (notice_of w e); [apply le_n|apply Nat.le_0_1].
  - rewrite (walk_split w a m h fs e E F), count_forward_app.
    apply Nat.add_le_mono; [exact B|apply notice_walk_quiet].
Qed.

(* C02: only the addressee, at most once, with the packet's own fields *)
Theorem delivered_only_to_addressee w a m h :
  (forall n m', In (EDeliver n m') (walk w a m h) ->
     n = m_to m /\ w_listen w n (m_tsvc m) = true /\
     m_from m' = m_from m /\ m_fsvc m' = m_fsvc m /\ m_to m' = m_to m /\
     m_tsvc m' = m_tsvc m /\ m_data m' = m_data m)
  /\ (count_deliver (walk w a m h) <= 1)%nat.
Proof.
  destruct (route_walk_shape w m h a) as (fs & e & E & F & _ & En).
  rewrite (walk_split w a m h fs e E F), E.
  destruct (notice_walk_quiet w e) as (_ & _ & Q). split.
  - intros n m' H. apply in_app_or in H as [H|H].
    + apply in_app_or in H as [H|[->|[]]].
      * apply (proj1 (Forall_forall _ _) F) in H. discriminate.
      * destruct (walk_end_deliver w m n m' En) as (E1 & [k ->] & E3). repeat split; assumption.
    + destruct (count_deliver_0 n m' _ Q H).
  - rewrite count_deliver_app, Q, Nat.add_0_r, (skip_forwards count_deliver fs _ F) by reflexivity.
    unfold count_deliver. cbn [filter]. destruct (is_deliver e); [apply le_n|apply Nat.le_0_1].
Qed.

Theorem accepted_send_is_walk w src fsvc to tsvc data h :
  send_refused fsvc tsvc = false ->
  fst (send_api w src fsvc to tsvc data h) = walk w src (origin_msg src fsvc to tsvc data h) h.
Proof. intro R. unfold send_api. rewrite R. reflexivity. Qed.

Lemma chain_ok_link w m n n' r : chain_ok w m (n :: n' :: r) = true ->
  beq_bytes (m_to m) n = false /\ w_route w n (m_to m) = Some n' /\ w_conn w n n' = true /\
  w_knows w n' (m_from m) && w_knows w n' (m_to m) = true /\ chain_ok w m (n' :: r) = true.
Proof.
  cbn [chain_ok]. intro C. repeat (apply andb_true_iff in C as [C ?]).
  apply negb_true_iff in C. destruct (w_route w n (m_to m)) as [x|]; [|discriminate].
  rewrite (proj1 (beq_bytes_eq x n')) by assumption.
  repeat split; try assumption. apply andb_true_iff. split; assumption.
Qed.

Lemma reach_trace w m ns : forall h,
  chain_ok w m ns = true -> route_walk w (hd [] ns) m h = chain_trace w m ns h.
Proof.
  induction ns as [|n r IH]; intros h C; [discriminate|].
  destruct r as [|n' r'].
  - cbn [chain_ok] in C. cbn [hd chain_trace].
    destruct h; cbn [route_walk]; rewrite C; reflexivity.
  - destruct (chain_ok_link w m n n' r' C) as (B & R & Cn & K & C').
    cbn [hd chain_trace]. destruct h as [|h]; cbn [route_walk]; rewrite B; [reflexivity|].
    rewrite R, Cn, K. apply f_equal, (IH h C').
Qed.

Lemma chain_ok_last w m ns : chain_ok w m ns = true -> last ns [] = m_to m.
Proof.
  induction ns as [|n r IH]; [discriminate|]. destruct r as [|n' r'].
  - cbn [chain_ok last]. intro B. apply beq_bytes_eq in B. symmetry. exact B.
  - intro C. change (last (n :: n' :: r') []) with (last (n' :: r') []).
    apply IH, (chain_ok_link w m n n' r' C).
Qed.

(* along a valid chain of d links: min d h forwards, then the local dispatch at the destination
   with h - d hops left if the budget lasts, else Expired at the h-th node.  Stated with [if] and
   [min] so that every step of the induction is a computation. *)
Lemma chain_walk w m ns d h : chain_ok w m ns = true -> length ns = S d ->
  exists fs, route_walk w (hd [] ns) m h
             = fs ++ [if (d <=? h)%nat then local_dispatch w (m_to m) (set_hops m (N.of_nat (h - d)))
                      else EExpired (nth h ns []) (set_hops m 0)]
             /\ all_forward fs /\ length fs = Nat.min d h.
Proof.
  intro C. rewrite (reach_trace w m ns h C), <- (chain_ok_last w m ns C). clear C. revert h d.
  induction ns as [|n r IH]; intros h d L; [discriminate|]. destruct r as [|n' r'].
  - injection L as <-. exists []. cbn [chain_trace]. rewrite Nat.sub_0_r. repeat split. constructor.
  - destruct d as [|d]; [discriminate|]. apply eq_add_S in L. destruct h as [|h].
    + exists []. repeat split. constructor.
    + destruct (IH h d L) as (fs & E & F & Lf).
      exists (EForward n n' (set_hops m (N.of_nat h)) :: fs).
      change (chain_trace w m (n :: n' :: r') (S h))
        with (EForward n n' (set_hops m (N.of_nat h)) :: chain_trace w m (n' :: r') h).
      rewrite E. repeat split; [constructor; [reflexivity|exact F]|cbn [length Nat.min]; rewrite Lf; reflexivity].
Qed.

(* C10: with a current route of d links and a listener on the addressed service, the
   datagram is handed over iff d <= h; it takes exactly min(d,h) forwards; when h < d the
   walk ends with Expired at the h-th node of the route.  The walk is never empty; each default
   of [last] is an event that differs from the right-hand side, so it cannot make the equation true. *)
Theorem reach_iff w m ns d h :
  chain_ok w m ns = true -> length ns = S d ->
  w_listen w (m_to m) (m_tsvc m) = true -> plain_svc (m_tsvc m) = true ->
  let t := route_walk w (hd [] ns) m h in
  delivered t = (d <=? h)%nat /\ count_forward t = Nat.min d h /\
  ((d <= h)%nat -> last t (EExpired [] m) = EDeliver (m_to m) (set_hops m (N.of_nat (h - d)))) /\
  ((h < d)%nat -> last t (EDeliver [] m) = EExpired (nth h ns []) (set_hops m 0)).
Proof.
  intros C L Li P t. subst t. destruct (chain_walk w m ns d h C L) as (fs & -> & F & Lf).
  rewrite local_dispatch_plain by exact P. cbn [set_hops m_tsvc]. rewrite Li.
  rewrite (skip_forwards delivered fs _ F), !last_last by reflexivity.
  destruct (Nat.leb_spec d h) as [Hd|Hd]; (rewrite count_forward_shape, Lf; [|exact F|reflexivity]).
  - split; [reflexivity|]. split; [reflexivity|]. split; [reflexivity|].
    intro Hh. apply Nat.lt_nge in Hh. contradiction.
  - split; [reflexivity|]. split; [reflexivity|]. split; [|reflexivity].
    intro Hh. apply Nat.lt_nge in Hd. contradiction.
Qed.

(* everything a datagram causes whose budget runs out at the h-th node of its route, when that
   node has a route back to the origin of b <= maxhops links: h forwards, the expiry, b
   forwards of the notice, and the notice at the origin's unreachable service *)
Lemma walk_expired w m ns d h bs b :
  chain_ok w m ns = true -> length ns = S d -> (h < d)%nat ->
  beq_bytes (m_fsvc m) svc_unreach = false ->
  let at_ := nth h ns [] in
  let nm := mk_notice w at_ P_EXPIRED (set_hops m 0) in
  chain_ok w nm bs = true -> hd [] bs = at_ -> length bs = S b -> (b <= w_maxhops w)%nat ->
  exists fs gs,
    walk w (hd [] ns) m h
    = fs ++ EExpired at_ (set_hops m 0)
         :: gs ++ [EUnreach (m_from m) (set_hops nm (N.of_nat (w_maxhops w - b)))]
    /\ all_forward fs /\ all_forward gs.
Proof.
  intros C L Hd Fs at_ nm Cb Hb Lb Bb.
  destruct (chain_walk w m ns d h C L) as (fs & E & F & _).
  rewrite (proj2 (Nat.leb_gt d h) Hd) in E.
  destruct (chain_walk w nm bs b (w_maxhops w) Cb Lb) as (gs & E' & G & _).
  rewrite (proj2 (Nat.leb_le b (w_maxhops w)) Bb) in E'.
  exists fs, gs. split; [|split; assumption].
  rewrite (walk_split w _ m h fs _ E F), E, <- app_assoc. cbn [app]. do 2 apply f_equal.
  unfold notice_walk. cbn [notice_of]. change (m_fsvc (set_hops m 0)) with (m_fsvc m). rewrite Fs.
  fold at_ nm. rewrite <- Hb, E'. rewrite local_dispatch_unreach by reflexivity. reflexivity.
Qed.

(* C10: the expiry is reported: the node where the budget ran out sends a notice to the
   origin, which reaches the origin's unreachable broker if that node has a route back of at most
   maxhops links *)
Theorem expiry_reported w m ns d h bs b :
  chain_ok w m ns = true -> length ns = S d -> (h < d)%nat ->
  beq_bytes (m_fsvc m) svc_unreach = false ->
  let at_ := nth h ns [] in
  let nm := mk_notice w at_ P_EXPIRED (set_hops m 0) in
  chain_ok w nm bs = true -> hd [] bs = at_ -> length bs = S b -> (b <= w_maxhops w)%nat ->
  In (EUnreach (m_from m) (set_hops nm (N.of_nat (w_maxhops w - b)))) (walk w (hd [] ns) m h).
Proof.
  intros C L Hd Fs at_ nm Cb Hb Lb Bb.
  destruct (walk_expired w m ns d h bs b C L Hd Fs Cb Hb Lb Bb) as (fs & gs & -> & _).
  apply in_or_app. right. right. apply in_elt.
Qed.

Lemma walk_reached w m ns d h e : chain_ok w m ns = true -> length ns = S d -> (d <= h)%nat ->
  local_dispatch w (m_to m) (set_hops m (N.of_nat (h - d))) = e -> notice_of w e = None ->
  exists fs, walk w (hd [] ns) m h = fs ++ [e] /\ all_forward fs.
Proof.
  intros C L Hd <- N. destruct (chain_walk w m ns d h C L) as (fs & E & F & _).
  rewrite (proj2 (Nat.leb_le d h) Hd) in E.
  exists fs. split; [|exact F].
  rewrite (walk_split w _ m h fs _ E F), E. unfold notice_walk. rewrite N. apply app_nil_r.
Qed.

Lemma chain_ok_ext w m m' ns :
  m_to m = m_to m' -> m_from m = m_from m' -> chain_ok w m ns = chain_ok w m' ns.
Proof.
  intros Et Ef. induction ns as [|n r IH]; [reflexivity|].
  destruct r as [|n' r']; cbn [chain_ok]; rewrite Et; [reflexivity|].
  rewrite Ef. cbn [chain_ok] in IH. rewrite Et, Ef in IH. rewrite IH. reflexivity.
Qed.

Lemma chain_ok_with_listener w n s m ns : chain_ok (with_listener w n s) m ns = chain_ok w m ns.
Proof.
  induction ns as [|a r IH]; [reflexivity|].
  destruct r as [|a' r']; cbn [chain_ok]; [reflexivity|].
  cbn [chain_ok] in IH. rewrite IH. reflexivity.
Qed.

Lemma prefixb_app a b : prefixb a (a ++ b) = true.
Proof. apply prefix_bytes_iff. now exists b. Qed.

Lemma send_error_forwards src fs t : all_forward fs ->
  send_error src t = SE_NONE -> send_error src (fs ++ t) = SE_NONE.
Proof. intros [|x l Hx _] H; [exact H|]. destruct x; try discriminate. reflexivity. Qed.

(* the filter of the pinging socket (src, eph) keeps the notice made for its own datagram *)
Lemma find_notice_own w src eph at_ p m k t : m_from m = src -> m_fsvc m = eph ->
  find_notice src eph (EUnreach src (set_hops (mk_notice w at_ p m) k) :: t) = Some (at_, p).
Proof.
  intros <- <-. cbn [find_notice set_hops mk_notice m_data m_from notice_data].
  rewrite beq_bytes_refl, app_assoc, prefixb_app. reflexivity.
Qed.

(* the loop of CreateTraceroute when the probes with budgets i, i+1, ... expire at the nodes l in
   turn and the next one is answered *)
Lemma traceroute_from_route w src dst eph : forall (l : list node) i n,
  (forall j, (j < length l)%nat -> ping w src dst eph (i + j) = PErr (nth j l []) P_EXPIRED) ->
  ping w src dst eph (i + length l) = PReply dst -> (length l < n)%nat ->
  traceroute_from w src dst eph i n = map (fun a => PErr a P_EXPIRED) l ++ [PReply dst].
Proof.
  induction l as [|a l IH]; intros i n Hexp Hrep Hn; (destruct n as [|n]; [inversion Hn|]);
    cbn [traceroute_from].
  - rewrite Nat.add_0_r in Hrep. rewrite Hrep. reflexivity.
  - pose proof (Hexp 0%nat (Nat.lt_0_succ _)) as H0. rewrite Nat.add_0_r in H0. rewrite H0.
    cbn [P_EXPIRED N.eqb Pos.eqb map app]. apply f_equal, IH.
    + intros j Hj. rewrite Nat.add_succ_comm. apply (Hexp (S j)), le_n_S, Hj.
    + rewrite Nat.add_succ_comm. exact Hrep.
    + apply le_S_n, Hn.
Qed.

Section Traceroute.
  Variables (w0 : world) (src dst eph : bytes).
  Let w := with_listener w0 src eph.
  Let pm (h : nat) := origin_msg src eph dst svc_ping [] h.
  Let rm := origin_msg dst svc_ping src eph [] (w_maxhops w0).
  Let nm (i : nat) (at_ : node) := mk_notice w at_ P_EXPIRED (set_hops (pm i) 0).

  Hypothesis src_plain : is_localhost src = false.
  Hypothesis dst_plain : is_localhost dst = false.
  Hypothesis eph_plain : plain_svc eph = true.

  Variable ns : list node.            (* the route src .. dst *)
  Variable d : nat.
  (* at budget 0, but good for every budget: [chain_ok] reads only the two node names *)
  Hypothesis route_ok : chain_ok w0 (pm 0) ns = true.
  Hypothesis route_hd : hd [] ns = src.
  Hypothesis route_len : length ns = S d.

  Lemma route_ok_w h : chain_ok w (pm h) ns = true.
  Proof.
    unfold w. rewrite chain_ok_with_listener, <- route_ok. unfold pm, origin_msg.
    (* [canon] is kept out of the two conversions: evaluating it is slow *)
    generalize (canon src dst). intro c. apply chain_ok_ext; reflexivity.
  Qed.

  (* budget i < d: "message expired" from the i-th node of the route, if that node has a route
     bs back to src within maxhops *)
  Lemma ping_expired i bs : (i < d)%nat ->
    chain_ok w0 (nm i (nth i ns [])) bs = true ->
    hd [] bs = nth i ns [] -> (length bs <= S (w_maxhops w0))%nat ->
    ping w0 src dst eph i = PErr (nth i ns []) P_EXPIRED.
  Proof.
    intros Hi Bok Bhd Blen.
    destruct bs as [|b0 br]; [discriminate|]. apply le_S_n in Blen.
    rewrite <- (chain_ok_with_listener w0 src eph) in Bok.
    destruct (walk_expired w (pm i) ns d i (b0 :: br) (length br) (route_ok_w i) route_len Hi
                (proj2 (plain_svc_spec eph eph_plain)) Bok Bhd eq_refl Blen) as (fs & gs & E & F & G).
    rewrite route_hd in E.
    unfold ping, send. fold w (pm i). rewrite E. cbv zeta.
    rewrite (send_error_forwards src fs _ F) by reflexivity. cbn [N.eqb SE_NONE negb].
    rewrite (skip_forwards find_ping fs _ F) by reflexivity. cbn [find_ping].
    rewrite (skip_forwards find_ping gs _ G) by reflexivity. cbn [find_ping].
    rewrite (skip_forwards (find_notice src eph) fs _ F) by reflexivity. cbn [find_notice].
    rewrite (skip_forwards (find_notice src eph) gs _ G) by reflexivity.
    rewrite find_notice_own by reflexivity. reflexivity.
  Qed.

  Lemma ping_reply_delivered qs : chain_ok w0 rm qs = true ->
    hd [] qs = dst -> (length qs <= S (w_maxhops w0))%nat ->
    has_deliver_at src eph (walk w dst rm (w_maxhops w0)) = true.
  Proof.
    intros Rok Rhd Rlen.
    destruct qs as [|r0 rr]; [discriminate|]. apply le_S_n in Rlen.
    rewrite <- (chain_ok_with_listener w0 src eph) in Rok.
    destruct (walk_reached w rm (r0 :: rr) (length rr) (w_maxhops w0)
                (EDeliver src (set_hops rm (N.of_nat (w_maxhops w0 - length rr)))) Rok eq_refl Rlen)
      as (gs & E & G).
    { rewrite local_dispatch_plain by exact eph_plain. cbn [rm origin_msg set_hops m_to m_tsvc].
      unfold canon. rewrite src_plain. unfold w. cbn [w_listen with_listener].
      rewrite !beq_bytes_refl, orb_true_r. reflexivity. }
    { reflexivity. }
    rewrite Rhd in E. rewrite E, (skip_forwards (has_deliver_at src eph) gs _ G) by reflexivity.
    unfold has_deliver_at. cbn [existsb set_hops rm origin_msg m_tsvc]. rewrite !beq_bytes_refl. reflexivity.
  Qed.

  (* budget h >= d: the reply of dst, if dst has a route qs back to src within maxhops *)
  Lemma ping_reached h qs : (d <= h)%nat -> chain_ok w0 rm qs = true ->
    hd [] qs = dst -> (length qs <= S (w_maxhops w0))%nat ->
    ping w0 src dst eph h = PReply dst.
  Proof.
    intros Hd Rok Rhd Rlen.
    destruct (walk_reached w (pm h) ns d h (EPing dst (set_hops (pm h) (N.of_nat (h - d))))
                (route_ok_w h) route_len Hd) as (fs & E & F).
    { rewrite local_dispatch_ping by reflexivity. cbn [pm origin_msg m_to].
      unfold canon. rewrite dst_plain. reflexivity. }
    { reflexivity. }
    rewrite route_hd in E.
    unfold ping, send. fold w (pm h). rewrite E. cbv zeta.
    rewrite (send_error_forwards src fs _ F) by reflexivity. cbn [N.eqb SE_NONE negb].
    rewrite (skip_forwards find_ping fs _ F) by reflexivity.
    cbn [find_ping set_hops pm origin_msg m_fsvc m_from].
    rewrite (proj1 (plain_svc_spec eph eph_plain)).
    change (w_maxhops w) with (w_maxhops w0). fold rm.
    rewrite (ping_reply_delivered qs Rok Rhd Rlen). reflexivity.
  Qed.

  (* every node of the route before dst has a route back to src within maxhops *)
  Variable back : nat -> list node.
  Hypothesis back_ok : forall i, (i < d)%nat ->
    chain_ok w0 (nm i (nth i ns [])) (back i) = true
    /\ hd [] (back i) = nth i ns [] /\ (length (back i) <= S (w_maxhops w0))%nat.
  (* and so has dst *)
  Variable rs : list node.
  Hypothesis reply_ok : chain_ok w0 rm rs = true.
  Hypothesis reply_hd : hd [] rs = dst.
  Hypothesis reply_len : (length rs <= S (w_maxhops w0))%nat.

  (* traceroute lists the nodes of the route in order and ends with the target's reply *)
  Theorem traceroute_lists_path : (d <= w_maxhops w0)%nat ->
    traceroute w0 src dst eph = map (fun a => PErr a P_EXPIRED) (removelast ns) ++ [PReply dst].
  Proof using All.
    intro Hd. unfold traceroute.
    assert (Ens : removelast ns ++ [last ns []] = ns).
    { symmetry. apply app_removelast_last. intro Z. rewrite Z in route_len. discriminate route_len. }
    pose proof (f_equal (@length _) Ens) as Ll.
    rewrite app_length, Nat.add_1_r, route_len in Ll. apply eq_add_S in Ll.
    apply traceroute_from_route; rewrite Ll; cbn [Nat.add].
    - intros j Hj. rewrite <- (app_nth1 (removelast ns) [last ns []] []), Ens by (rewrite Ll; exact Hj).
      destruct (back_ok j Hj) as (Bok & Bhd & Blen). apply (ping_expired j (back j)); assumption.
    - apply (ping_reached d rs); [apply le_n|assumption..].
    - apply le_n_S, Hd.
  Qed.
End Traceroute.

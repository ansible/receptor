(* Proofs/Framer.v — the framing of stream backends delivers exactly the messages, however the
   byte stream is cut into reads (Model/Framer.v).  What GetMessage returns is fixed by the shape
   of the buffer and stays when more bytes arrive, so a Recv call returns the first frame of the
   stream as soon as the buffer holds it and fails when the data ends inside it.  A complete
   stream is the case where the data ends before the first byte of a further frame. *)
From Coq Require Import PeanoNat Lia.
From Receptor Require Import Base.ListFacts Model.Framer.
Open Scope N_scope.

Definition small (m : bytes) : Prop := flen m < 65536.

Lemma frame_length m : length (frame m) = S (S (length m)).
Proof. reflexivity. Qed.

Lemma stream_app a b : stream (a ++ b) = stream a ++ stream b.
Proof. unfold stream. rewrite map_app, concat_app. reflexivity. Qed.

(* whatever the header says (any two bytes, 0 .. 65535 announced), a message that GetMessage
   returns lies inside the buffer: buffer = header ++ message ++ rest, and the message has
   exactly the announced length — the slice bounds of "f.buffer[2 : msgSize+2]" are always valid *)
Theorem pop_in_bounds buf m rest : pop buf = Some (m, rest) ->
  exists b0 b1, buf = b0 :: b1 :: m ++ rest /\ flen m = b0 + 256 * b1.
Proof.
  destruct buf as [|b0 [|b1 r]]; try discriminate. cbn [pop].
  remember (b0 + 256 * b1) as n eqn:En.
  destruct (n <=? flen r) eqn:E; [|discriminate]. intro H. injection H as <- <-.
  exists b0, b1. rewrite firstn_skipn. split; [reflexivity|]. rewrite <- En.
  apply N.leb_le in E. unfold flen in *. rewrite firstn_length.
  rewrite Nat.min_l by lia. apply N2Nat.id.
Qed.

Lemma pop_header b0 b1 m rest : flen m = b0 + 256 * b1 -> pop (b0 :: b1 :: m ++ rest) = Some (m, rest).
Proof.
  intro L. cbn [pop]. rewrite <- L. unfold flen. rewrite app_length, Nat2N.id.
  rewrite (proj2 (N.leb_le _ _)) by lia.
  rewrite firstn_app_exact, skipn_app_exact by reflexivity. reflexivity.
Qed.

Theorem pop_none_iff b0 b1 r : pop (b0 :: b1 :: r) = None <-> flen r < b0 + 256 * b1.
Proof.
  cbn [pop]. destruct (N.leb_spec (b0 + 256 * b1) (flen r)) as [L|L]; split; intro H;
    try discriminate; try reflexivity; lia.
Qed.

Lemma pop_app buf x m rest : pop buf = Some (m, rest) -> pop (buf ++ x) = Some (m, rest ++ x).
Proof.
  intro H. apply pop_in_bounds in H as (b0 & b1 & -> & L).
  cbn [app]. rewrite <- app_assoc. apply pop_header, L.
Qed.

Lemma frame_header m : small m -> flen m mod 256 + 256 * ((flen m / 256) mod 256) = flen m.
Proof.
  unfold small. intro H.
  rewrite (N.mod_small (flen m / 256)).
  - rewrite N.add_comm. symmetry. apply N.div_mod. discriminate.
  - apply N.div_lt_upper_bound; lia.
Qed.

(* for every message shorter than 2^16 the two header bytes are bytes and spell the exact
   length: nothing wraps anywhere on the property's whole range 0 .. 65535 *)
Theorem frame_header_exact m : small m ->
  exists b0 b1, frame m = b0 :: b1 :: m /\ b0 < 256 /\ b1 < 256 /\ b0 + 256 * b1 = flen m
                /\ b0 + 256 * b1 + 2 <= 65537.
Proof.
  intro H. exists (flen m mod 256), ((flen m / 256) mod 256).
  split; [reflexivity|]. split; [apply N.mod_lt; discriminate|]. split; [apply N.mod_lt; discriminate|].
  rewrite (frame_header m H). unfold small in H. lia.
Qed.

(* outside the hypothesis: SendData truncates the length of a message of 65536 bytes or more *)
Example frame_truncates m : flen m = 65536 -> firstn 2 (frame m) = [0; 0].
Proof. intro H. unfold frame. rewrite H. reflexivity. Qed.

Theorem frame_header_wraps m :
  exists b0 b1, frame m = b0 :: b1 :: m /\ b0 + 256 * b1 = flen m mod 65536.
Proof.
  exists (flen m mod 256), ((flen m / 256) mod 256). split; [reflexivity|].
  change 65536 with (256 * 256). rewrite (N.mod_mul_r (flen m) 256 256) by lia. reflexivity.
Qed.

(* from 65536 bytes on the framing is lost (what pkg/framer does as well: SendData does
   not refuse, it truncates the length): a 65536-byte message is received as an empty message
   followed by its own bytes taken for the next frames *)
Theorem oversize_frame_garbled m : flen m = 65536 -> pop (frame m) = Some ([], m).
Proof. intro H. unfold frame. rewrite H. apply (pop_header 0 0 []). reflexivity. Qed.

Lemma pop_frame m rest : small m -> pop (frame m ++ rest) = Some (m, rest).
Proof. intro H. apply pop_header. symmetry. apply frame_header, H. Qed.

Lemma app_not_nil_r {A} (a l : list A) : l <> [] -> a ++ l <> [].
Proof. intros Hl E. apply app_eq_nil in E as [_ E]. contradiction. Qed.

Lemma pop_partial m buf l : small m -> frame m = buf ++ l -> l <> [] -> pop buf = None.
Proof.
  intros H E Hl. destruct (pop buf) as [[m' rest]|] eqn:P; [|reflexivity].
  apply (pop_app _ l) in P. rewrite <- E, <- (app_nil_r (frame m)), pop_frame in P by exact H.
  injection P as _ P. symmetry in P. destruct (app_not_nil_r rest l Hl P).
Qed.

Lemma recv_one_complete chunks : forall buf m rest,
  small m -> buf ++ concat chunks = frame m ++ rest ->
  exists buf' cs', recv_one buf chunks = Some (m, buf', cs') /\ buf' ++ concat cs' = rest.
Proof.
  induction chunks as [|c cs IH]; intros buf m rest Hm E; cbn [recv_one concat] in *.
  - rewrite app_nil_r in E. subst buf. rewrite pop_frame by exact Hm.
    exists rest, []. split; [reflexivity|apply app_nil_r].
  - destruct (pop buf) as [[m' buf']|] eqn:P.
    + apply (pop_app _ (c ++ concat cs)) in P. rewrite E, pop_frame in P by exact Hm.
      injection P as <- ->. exists buf', (c :: cs). split; reflexivity.
    + apply IH; [exact Hm|]. unfold feed. rewrite <- app_assoc. exact E.
Qed.

Lemma recv_one_starved chunks : forall buf m l,
  small m -> frame m = (buf ++ concat chunks) ++ l -> l <> [] -> recv_one buf chunks = None.
Proof.
  induction chunks as [|c cs IH]; intros buf m l Hm E Hl; cbn [recv_one concat] in *;
    rewrite <- app_assoc in E.
  - rewrite (pop_partial m buf _ Hm E) by exact Hl. reflexivity.
  - rewrite (pop_partial m buf _ Hm E) by (apply app_not_nil_r, Hl).
    apply (IH _ m l Hm); [|exact Hl]. unfold feed. rewrite E, <- !app_assoc. reflexivity.
Qed.

(* a stream that ends inside a frame, or before its first byte, yields exactly the messages
   before that frame *)
Lemma recv_loop_cut ms1 : forall buf chunks fuel m2 p l,
  Forall small ms1 -> small m2 -> frame m2 = p ++ l -> l <> [] ->
  buf ++ concat chunks = stream ms1 ++ p -> (length ms1 < fuel)%nat ->
  recv_loop fuel buf chunks = ms1.
Proof.
  induction ms1 as [|m ms IH]; intros buf chunks fuel m2 p l Hs H2 Ep Hl E Hf;
    (destruct fuel as [|f]; [cbn [length] in Hf; lia|]); cbn [recv_loop].
  - rewrite (recv_one_starved chunks buf m2 l H2); [reflexivity| |exact Hl].
    rewrite E. exact Ep.
  - inversion Hs as [|? ? Hm Hms]; subst.
    unfold stream in E. cbn [map concat] in E. rewrite <- app_assoc in E.
    destruct (recv_one_complete chunks buf m _ Hm E) as (buf' & cs' & R & E').
    rewrite R. f_equal.
    apply (IH buf' cs' f m2 p l); try assumption. cbn [length] in Hf. lia.
Qed.

Theorem framer_cut ms1 m2 p l chunks :
  Forall small ms1 -> small m2 -> frame m2 = p ++ l -> l <> [] ->
  concat chunks = stream ms1 ++ p ->
  recv_loop (S (length ms1)) [] chunks = ms1.
Proof. intros. eapply recv_loop_cut; eauto. Qed.

(* every chunking of the framed stream yields exactly the messages: the stream ends before the
   first byte of a further (say empty) message *)
Theorem framer_any_chunking msgs chunks :
  Forall small msgs -> concat chunks = stream msgs ->
  recv_loop (S (length msgs)) [] chunks = msgs.
Proof.
  intros Hs E. apply (framer_cut msgs [] [] (frame [])); try easy.
  rewrite app_nil_r. exact E.
Qed.

Lemma cut_decompose msgs : Forall small msgs -> forall k,
  exists j m p l, small m /\ frame m = p ++ l /\ l <> [] /\
                  firstn k (stream msgs) = stream (firstn j msgs) ++ p.
Proof.
  induction 1 as [|m ms Hm _ IH]; intro k.
  - exists 0%nat, [], [], (frame []). rewrite firstn_nil. easy.
  - change (stream (m :: ms)) with (frame m ++ stream ms). rewrite firstn_app.
    destruct (Nat.lt_ge_cases k (length (frame m))) as [Hk|Hk].
    + exists 0%nat, m, (firstn k (frame m)), (skipn k (frame m)).
      replace (k - length (frame m))%nat with 0%nat by lia.
      repeat split; [exact Hm|symmetry; apply firstn_skipn| |apply app_nil_r].
      intro E. apply (f_equal (@length N)) in E. rewrite skipn_length in E. cbn [length] in E. lia.
    + destruct (IH (k - length (frame m))%nat) as (j & m2 & p & l & H2 & Ep & Hl & E).
      exists (S j), m2, p, l. repeat split; try assumption.
      rewrite firstn_all2, E by lia. apply app_assoc.
Qed.

(* the stream cut ANYWHERE: a prefix of the messages is delivered, nothing else *)
Lemma recv_loop_stream_cut msgs k buf chunks fuel :
  Forall small msgs -> buf ++ concat chunks = firstn k (stream msgs) -> (length msgs < fuel)%nat ->
  exists j, recv_loop fuel buf chunks = firstn j msgs.
Proof.
  intros Hs E Hf. destruct (cut_decompose msgs Hs k) as (j & m & p & l & Hm & Ep & Hl & Ek).
  exists j. apply (recv_loop_cut _ _ _ _ m p l); try assumption.
  - rewrite <- (firstn_skipn j msgs) in Hs. apply Forall_app in Hs. apply Hs.
  - rewrite E. exact Ek.
  - rewrite firstn_length. lia.
Qed.

Lemma concat_singletons {A} (l : list A) : concat (map (fun x => [x]) l) = l.
Proof. induction l as [|x l IH]; [reflexivity|]. cbn [map concat app]. f_equal. exact IH. Qed.

(* non-vacuity: a 300-byte message, a header split between two reads, two frames in one read *)
Example chunking_instance :
  let m1 := repeat 7 300 in let m2 := [] in let m3 := [1; 2; 3] in
  let s := stream [m1; m2; m3] in
  recv_loop 4 [] [firstn 1 s; firstn 302 (skipn 1 s); skipn 303 s] = [m1; m2; m3]
  /\ recv_loop 4 [] (map (fun b => [b]) s) = [m1; m2; m3]
  /\ recv_loop 4 [] [firstn 305 s] = [m1; m2].
Proof.
  cbv zeta. split; [reflexivity|]. split; [|reflexivity].
  (* byte by byte (evaluating this one means re-measuring the growing buffer at each of the
     309 reads): an instance of the theorem *)
  apply (framer_any_chunking [_; _; _]); [|apply concat_singletons].
  repeat constructor.
Qed.

(* Proofs/Fs.v — the general file system of Model/Fs.v and the per-unit record of Model/Crash.v:
   each step of the unit model IS the file-system operation it stands for, and touches nothing
   outside the unit's directory (property C04). *)
From Receptor Require Import Model.Crash.
Open Scope N_scope.

(* [beq_path] unfolds to [beq_bytes] of Base/Hex.v *)
Lemma beq_path_refl p : beq_path p p = true.
Proof. exact (beq_bytes_refl p). Qed.

Lemma beq_path_eq p q : beq_path p q = true <-> p = q.
Proof. exact (beq_bytes_eq p q). Qed.

Lemma fs_get_set_same fs p n : fs_get (fs_set fs p n) p = Some n.
Proof.
  induction fs as [|[q m] r IH]; simpl.
  - now rewrite beq_path_refl.
  - destruct (beq_path q p) eqn:E; simpl.
    + now rewrite E.
    + now rewrite E.
Qed.

Lemma fs_get_set_other fs p n q : beq_path p q = false -> fs_get (fs_set fs p n) q = fs_get fs q.
Proof.
  intro H. induction fs as [|[a m] r IH]; simpl.
  - now rewrite H.
  - destruct (beq_path a p) eqn:E; simpl.
    + apply beq_path_eq in E. subst a. now rewrite H.
    + destruct (beq_path a q); [reflexivity|exact IH].
Qed.

Lemma fsop_path_under u o : is_under (unitp u) (op_path (fsop_of u o)) = true.
Proof. destruct o; simpl; now rewrite N.eqb_refl. Qed.

Lemma under_neq p q r : is_under p q = true -> is_under p r = false -> beq_path q r = false.
Proof.
  revert q r; induction p as [|x p IH]; intros q r H1 H2; simpl in *; [discriminate|].
  destruct q as [|y q]; [discriminate|]. destruct r as [|z r]; [reflexivity|].
  simpl. apply andb_true_iff in H1 as [E1 H1]. apply N.eqb_eq in E1. subst y.
  destruct (x =? z) eqn:E; simpl in *; [|reflexivity]. now apply IH.
Qed.

Theorem fsop_frame : forall u o fs q,
  is_under (unitp u) q = false -> fs_get (apply_op fs (fsop_of u o)) q = fs_get fs q.
Proof.
  intros u o fs q Hq.
  assert (Hne : beq_path (op_path (fsop_of u o)) q = false)
    by (apply (under_neq (unitp u)); [apply fsop_path_under|exact Hq]).
  destruct o; simpl in *;
    repeat match goal with
           | |- context [match fs_get fs ?p with _ => _ end] => destruct (fs_get fs p) as [[|?]|]
           end; try reflexivity; now apply fs_get_set_other.
Qed.

Definition well_typed (u : N) (fs : fsstate) : Prop :=
  (fs_get fs (unitp u) = None \/ fs_get fs (unitp u) = Some Dir) /\
  forall f, fs_get fs (filep u f) = None \/ exists c, fs_get fs (filep u f) = Some (File c).

Lemma filep_neq u f g : f <> g -> beq_path (filep u f) (filep u g) = false.
Proof. intro H. destruct f, g; try congruence; simpl; now rewrite N.eqb_refl. Qed.

Lemma filep_unitp u f : beq_path (filep u f) (unitp u) = false.
Proof. simpl. now rewrite N.eqb_refl. Qed.

Lemma unitp_filep u f : beq_path (unitp u) (filep u f) = false.
Proof. simpl. now rewrite N.eqb_refl. Qed.

Lemma ufile_dec (f g : ufile) : {f = g} + {f <> g}.
Proof. decide equality. Qed.

Lemma content_set_same fs p c : file_content (fs_set fs p (File c)) p = Some c.
Proof. unfold file_content. now rewrite fs_get_set_same. Qed.

Lemma content_set_other fs p n q : beq_path p q = false ->
  file_content (fs_set fs p n) q = file_content fs q.
Proof. intro H. unfold file_content. now rewrite fs_get_set_other. Qed.

Lemma isdir_set_other fs p n q : beq_path p q = false -> is_dir (fs_set fs p n) q = is_dir fs q.
Proof. intro H. unfold is_dir. now rewrite fs_get_set_other. Qed.

Lemma project_set_file u fs f c :
  project u (fs_set fs (filep u f) (File c)) = uset (project u fs) f (Some c).
Proof.
  unfold project.
  rewrite (isdir_set_other _ _ _ _ (filep_unitp u f)).
  destruct f; simpl uset; f_equal;
    try apply content_set_same;
    try (apply content_set_other; apply filep_neq; discriminate).
Qed.

Lemma uget_project u fs f : uget (project u fs) f = file_content fs (filep u f).
Proof. destruct f; reflexivity. Qed.

Lemma uset_same x f : uset x f (uget x f) = x.
Proof. destruct x, f; reflexivity. Qed.

Theorem project_apply : forall u fs o,
  well_typed u fs ->
  project u (apply_op fs (fsop_of u o)) = uapply (project u fs) o /\
  well_typed u (apply_op fs (fsop_of u o)).
Proof.
  intros u fs o Hwt. pose proof Hwt as [Hd Hf].
  assert (Hset : forall f c, project u (fs_set fs (filep u f) (File c)) = uset (project u fs) f (Some c) /\
                             well_typed u (fs_set fs (filep u f) (File c))).
  { intros f c. split; [apply project_set_file|]. split.
    - rewrite (fs_get_set_other _ _ _ _ (filep_unitp u f)). exact Hd.
    - intro g. destruct (ufile_dec f g) as [->|Hne].
      + right. exists c. apply fs_get_set_same.
      + rewrite (fs_get_set_other _ _ _ _ (filep_neq u f g Hne)). apply Hf. }
  destruct o as [|f|f|f|f off b|f b]; simpl fsop_of; simpl apply_op; unfold uapply;
    rewrite ?uget_project; unfold file_content.
  - destruct Hd as [Hd|Hd]; rewrite Hd.
    + split.
      * unfold project. simpl. unfold is_dir. rewrite fs_get_set_same.
        f_equal; apply content_set_other; apply unitp_filep.
      * split; [right; apply fs_get_set_same|].
        intro g. rewrite (fs_get_set_other _ _ _ _ (unitp_filep u g)). apply Hf.
    + split; [|exact Hwt]. unfold project, is_dir. simpl. now rewrite Hd.
  - destruct (Hf f) as [E|[c E]]; rewrite E; [apply Hset|now split].
  - destruct (Hf f) as [E|[c E]]; rewrite E; apply Hset.
  - destruct (Hf f) as [E|[c E]]; rewrite E; [now split|apply Hset].
  - destruct (Hf f) as [E|[c E]]; rewrite E; [now split|apply Hset].
  - destruct (Hf f) as [E|[c E]]; rewrite E; apply Hset.
Qed.

Lemma well_typed_empty u : well_typed u [].
Proof. split; [now left|intro f; now left]. Qed.


(* Proofs/Life.v — C17 over Model/Life.v.  In the repaired variant nothing can panic and only
   Shutdown touches the list of nodes shut down (one walk through [step]); a node's goroutine
   counts are all zero once it has no open socket and nothing live on it, which is the case when
   it is down, and when its sockets and listeners are closed (a connection whose listener is
   closed, or that either end finished with CloseConnection, holds nothing). *)
From Coq Require Import Lia.
From Receptor Require Import Model.Life.
Open Scope N_scope.

Lemma filter_nil : forall {A} (f : A -> bool) l, (forall x, In x l -> f x = false) -> filter f l = [].
Proof.
  induction l as [|x l IH]; intros H; [reflexivity|]. cbn [filter].
  rewrite (H x (or_introl eq_refl)). apply IH. intros y Hy. apply H. now right.
Qed.

Lemma count_zero : forall {A} (f : A -> bool) l, (forall x, In x l -> f x = false) -> count f l = 0%nat.
Proof. intros. unfold count. now rewrite filter_nil. Qed.

Lemma filter_closed_nil : forall {A} (p c : A -> bool) l,
  forallb c l = true -> filter (fun x => p x && negb (c x)) l = [].
Proof.
  intros A p c l H. apply filter_nil. intros x Hx.
  rewrite (proj1 (forallb_forall c l) H x Hx). apply andb_false_r.
Qed.

Lemma lookup_forallb : forall {A} (f : A -> bool) l k v,
  forallb (fun x => f (snd x)) l = true -> lookup k l = Some v -> f v = true.
Proof.
  induction l as [|[k0 v0] l IH]; intros k v H L; [discriminate|]. cbn [forallb lookup snd] in *.
  apply andb_true_iff in H as [H1 H2]. destruct (k =? k0); [now injection L as <- | now apply (IH k)].
Qed.

Lemma lookup_update_same : forall {A} (k : N) (v v' : A) l, lookup k l = Some v -> lookup k (update k v' l) = Some v'.
Proof.
  induction l as [|[k0 v0] l IH]; intros H; [discriminate|]. cbn [lookup update] in *.
  destruct (k =? k0) eqn:E; cbn [lookup]; rewrite E; [reflexivity | now apply IH].
Qed.

Lemma run_invariant : forall v (P : st -> Prop),
  (forall s o s', P s -> step v s o = Ok s' -> P s') ->
  forall h s s', P s -> run v s h = Ok s' -> P s'.
Proof.
  intros v P Hstep. induction h as [|o h IH]; intros s s' Hs H; cbn [run] in H.
  - injection H as <-. exact Hs.
  - destruct (step v s o) as [s1| |] eqn:E; [|now apply (IH s)|discriminate].
    apply (IH s1); [now apply (Hstep s o)|exact H].
Qed.

(* the outcome is not a panic, and a new state has [d] as its list of nodes shut down *)
Definition no_panic_down (d : list N) (r : outcome) : Prop :=
  match r with Ok s' => down s' = d | Reject => True | Panic _ => False end.

Lemma withdraw_fixed : forall s n name, no_panic_down (down s) (withdraw Fixed s n name).
Proof. intros. unfold withdraw. now destruct (mem2 (n, name) (ads s)). Qed.

Lemma close_psock_fixed : forall s id k, no_panic_down (down s) (close_psock Fixed s id k).
Proof.
  intros s id k. unfold close_psock. destruct (k_closed k); [reflexivity|].
  destruct (k_adv k); [|reflexivity]. apply (withdraw_fixed (set_socks s _)).
Qed.

Lemma close_lis_fixed : forall s id l, no_panic_down (down s) (close_lis Fixed s id l).
Proof.
  intros s id l. unfold close_lis. destruct (l_closed l); [reflexivity|].
  destruct (l_adv l); [|reflexivity]. apply (withdraw_fixed (set_liss s _)).
Qed.

Lemma step_fixed_no_panic_down : forall s o,
  no_panic_down (match o with Shutdown n => n :: down s | _ => down s end) (step Fixed s o).
Proof.
  intros s o. destruct o; cbn [step].
  - (* ListenPacket *) destruct (_ || _ || _); [exact I|]. now destruct adv.
  - (* PcClose *) destruct (lookup id (socks s)); [apply close_psock_fixed | exact I].
  - (* Subscribe *) destruct (lookup sid (socks s)); [|exact I].
    destruct (lookup uid (subs s)); [exact I|]. now destruct (_ || _).
  - (* SubDone *) now destruct (lookup uid (subs s)).
  - (* Park *) destruct (lookup sid (socks s)); [|exact I]. now destruct (_ || _).
  - (* ReadOne *) destruct (lookup sid (socks s)) as [k|]; [|exact I]. now destruct (k_parked k).
  - (* Listen *) destruct (_ || _ || _); [exact I|]. now destruct adv.
  - (* LiClose *) destruct (lookup id (liss s)) as [l|]; [|exact I].
    pose proof (close_lis_fixed s id l) as H. now destruct (close_lis Fixed s id l).
  - (* DialOk *) now destruct (_ || _ || _ || _).
  - (* DialFail *) reflexivity.
  - (* ConnClose *) unfold upd_conn. now destruct (lookup cid (conns s)).
  - (* CloseConnection *) unfold upd_conn. now destruct (lookup cid (conns s)).
  - (* PingOp *) now destruct (is_down s node).
  - (* Shutdown *) reflexivity.
  - (* StreamOp *) now destruct (lookup cid (conns s)).
Qed.

(* In the model a panic can only come from [withdraw] (RemoveLocalServiceAdvertisement without
   an entry) and from [close_psock] with two deliverers waiting, both in the Pinned variant only:
   for Fixed this is a fact about the variant, and what ties it to the code is the harness. *)
Theorem close_never_panics : forall h s p, run Fixed s h <> Panic p.
Proof.
  induction h as [|o h IH]; intros s p; cbn [run]; [discriminate|].
  pose proof (step_fixed_no_panic_down s o) as H.
  destruct (step Fixed s o) as [s'| |q]; [apply IH | apply IH | destruct H].
Qed.

(* the pinned tree panics: a second Close of an advertising socket or listener, a Close with two
   deliverers waiting *)
Theorem pinned_double_close_socket_refuted :
  run Pinned init [ListenPacket 1 0 10 true; PcClose 1; PcClose 1] = Panic PNilAdvert.
Proof. reflexivity. Qed.
Theorem pinned_double_close_listener_refuted :
  run Pinned init [Listen 1 0 10 true; LiClose 1; LiClose 1] = Panic PNilAdvert.
Proof. reflexivity. Qed.
Theorem pinned_two_deliverers_refuted :
  run Pinned init [ListenPacket 1 0 10 false; Park 1; Park 1; PcClose 1] = Panic PDoubleCloseChan.
Proof. reflexivity. Qed.

Lemma quiet_node : forall s n,
  open_sockets Fixed s n = 0%nat ->
  count (fun x => sub_live s (snd x) n) (subs s) = 0%nat ->
  count (fun x => acc_live s (snd x) n) (conns s) = 0%nat ->
  count (fun x => dmon_live Fixed s (snd x) n) (conns s) = 0%nat ->
  count (fun x => dclean_live Fixed s (snd x) n) (conns s) = 0%nat ->
  forall g, goroutines Fixed s g n = 0%nat.
Proof.
  intros s n Os Cu Ca Cm Cd g. destruct g; cbn [goroutines]; rewrite ?Os, ?Cu, ?Ca, ?Cm, ?Cd; try reflexivity.
  (* the open listeners are among the open sockets *)
  unfold open_sockets in Os. destruct (is_down s n); [reflexivity | lia].
Qed.

(* a connection that holds nothing: no ephemeral socket, no goroutine on any node *)
Definition conn_dead (s : st) (c : conn) : Prop :=
  eph_open Fixed s c = false /\
  forall n, dmon_live Fixed s c n = false /\ dclean_live Fixed s c n = false /\ acc_live s c n = false.

Lemma over_conn_dead : forall s c,
  over s c = true -> c_adone c = true \/ lis_closed s (c_lis c) = true -> conn_dead s c.
Proof.
  intros s c O A. unfold conn_dead, dmon_live, dclean_live, acc_live. cbn [eph_open]. rewrite O.
  split; [reflexivity|]. intro n. destruct A as [-> | ->]; cbn; now rewrite !andb_false_r.
Qed.

Lemma dead_conns_hold_nothing : forall s n, (forall x, In x (conns s) -> conn_dead s (snd x)) ->
  filter (fun x => (c_dnode (snd x) =? n) && eph_open Fixed s (snd x)) (conns s) = [] /\
  count (fun x => acc_live s (snd x) n) (conns s) = 0%nat /\
  count (fun x => dmon_live Fixed s (snd x) n) (conns s) = 0%nat /\
  count (fun x => dclean_live Fixed s (snd x) n) (conns s) = 0%nat.
Proof.
  intros s n Dead. split; [|repeat split; apply count_zero; intros x Hx; apply (Dead x Hx)].
  apply filter_nil. intros x Hx. rewrite (proj1 (Dead x Hx)). apply andb_false_r.
Qed.

Lemma over_when_closed_connection : forall s c, (c_dcc c || c_acc c) = true -> over s c = true.
Proof. intros s c H. unfold over. now rewrite H. Qed.

Lemma over_when_lis_closed : forall s c, lis_closed s (c_lis c) = true -> over s c = true.
Proof. intros s c H. unfold over. rewrite H. now rewrite !orb_true_r. Qed.

Lemma lis_closed_all : forall s, forallb (fun x => l_closed (snd x)) (liss s) = true ->
  forall lid, lis_closed s lid = true.
Proof.
  intros s H lid. unfold lis_closed. destruct (lookup lid (liss s)) eqn:L; [|reflexivity].
  exact (lookup_forallb l_closed _ _ _ H L).
Qed.

(* closing every socket and listener is enough: a subscription is live only on an open socket,
   and a connection whose listener is closed is over, whatever its two ends have done *)
Lemma closed_objects_release_everything : forall s n,
  forallb (fun x => k_closed (snd x)) (socks s) = true ->
  forallb (fun x => l_closed (snd x)) (liss s) = true ->
  registry Fixed s n = [] /\ forall g, goroutines Fixed s g n = 0%nat.
Proof.
  intros s n Hs Hl. pose proof (lis_closed_all s Hl) as Hlc.
  destruct (dead_conns_hold_nothing s n) as (Fe & Ca & Cm & Cd).
  { intros x _. apply over_conn_dead; [apply over_when_lis_closed|right]; apply Hlc. }
  pose proof (filter_closed_nil (fun x => k_node (snd x) =? n) _ _ Hs) as Fs.
  pose proof (filter_closed_nil (fun x => l_node (snd x) =? n) _ _ Hl) as Fl. cbn beta in Fs, Fl.
  split.
  - unfold registry. now rewrite Fs, Fl, Fe.
  - apply quiet_node; try assumption.
    + unfold open_sockets, count. rewrite Fs, Fl, Fe. now destruct (is_down s n).
    + apply count_zero. intros x Hx. unfold sub_live.
      destruct (lookup (u_sock (snd x)) (socks s)) as [k|] eqn:L; [|reflexivity].
      rewrite (lookup_forallb k_closed _ _ _ Hs L). cbn. now rewrite !andb_false_r.
Qed.

Theorem all_closed_releases_everything : forall s n,
  all_closed s = true ->
  registry Fixed s n = [] /\ forall g, goroutines Fixed s g n = 0%nat.
Proof.
  intros s n H. unfold all_closed in H.
  apply andb_true_iff in H as [H _]. apply andb_true_iff in H as [H Hl]. apply andb_true_iff in H as [Hs _].
  now apply closed_objects_release_everything.
Qed.

Lemma finished_conn_dead : forall s c,
  conn_done c = true -> (c_dcc c || c_acc c) = true -> conn_dead s c.
Proof.
  intros s c Hd Hc. apply andb_true_iff in Hd as [_ Ha].
  apply over_conn_dead; [apply over_when_closed_connection, Hc | left; exact Ha].
Qed.

(* open finding: both ends only half-close (Conn.Close) while the listener lives on *)
Definition h_close_close : list op :=
  [Listen 1 1 10 false; DialOk 2 0 1 20; ConnClose 2 true; ConnClose 2 false].
Theorem finished_connection_close_close_refuted :
  exists s c, run Fixed init h_close_close = Ok s /\ lookup 2 (conns s) = Some c /\ conn_done c = true /\
              registry Fixed s 0 = [20] /\ conn_residue Fixed s c = 2%nat /\
              goroutines Fixed s SDial 0 = 1%nat /\ goroutines Fixed s SStartUnreachable 0 = 2%nat.
Proof. vm_compute. eexists. eexists. repeat split; reflexivity. Qed.

(* the pinned tree leaked the ephemeral socket after CloseConnection as well (fixed) *)
Definition h_dial_cc : list op :=
  [Listen 1 1 10 false; DialOk 2 0 1 20; CloseConnection 2 true; ConnClose 2 false].
Theorem pinned_dial_closeconnection_refuted :
  (exists s, run Pinned init h_dial_cc = Ok s /\ registry Pinned s 0 = [20] /\ goroutines Pinned s SStartUnreachable 0 = 2%nat) /\
  (exists s, run Fixed init h_dial_cc = Ok s /\ registry Fixed s 0 = [] /\ forall g, goroutines Fixed s g 0 = 0%nat).
Proof.
  split; vm_compute; eexists; repeat split; try reflexivity. intros g; destruct g; reflexivity.
Qed.

Lemma down_goroutines_zero : forall s n g, is_down s n = true -> goroutines Fixed s g n = 0%nat.
Proof.
  intros s n g H.
  assert (U : up s n = false) by (unfold up; now rewrite H).
  apply quiet_node; [unfold open_sockets; now rewrite H | | | | ]; apply count_zero; intros x _.
  - unfold sub_live. destruct (lookup (u_sock (snd x)) (socks s)); [|reflexivity].
    rewrite U. apply andb_false_r.
  - unfold acc_live. rewrite U. apply andb_false_r.
  - unfold dmon_live. rewrite U. apply andb_false_r.
  - unfold dclean_live. rewrite U. now rewrite andb_false_r.
Qed.

Lemma step_fixed_down : forall s o s' n, step Fixed s o = Ok s' -> is_down s n = true -> is_down s' n = true.
Proof.
  intros s o s' n E D. pose proof (step_fixed_no_panic_down s o) as H. rewrite E in H.
  unfold is_down, memN in *. cbn [no_panic_down] in H. rewrite H. destruct o; try exact D.
  cbn [existsb]. rewrite D. apply orb_true_r.
Qed.

Theorem shutdown_stops_all : forall s n s1 h s2 g,
  step Fixed s (Shutdown n) = Ok s1 -> run Fixed s1 h = Ok s2 -> goroutines Fixed s2 g n = 0%nat.
Proof.
  intros s n s1 h s2 g H1 H2. apply down_goroutines_zero.
  apply (run_invariant Fixed (fun s => is_down s n = true)) with (h := h) (s := s1); [|  |exact H2].
  - intros s0 o s' D E. exact (step_fixed_down s0 o s' n E D).
  - cbn [step] in H1. injection H1 as <-. unfold is_down, memN. cbn. now rewrite N.eqb_refl.
Qed.

Lemma withdraw_socks : forall v s n name s', withdraw v s n name = Ok s' -> socks s' = socks s.
Proof.
  intros v s n name s' H. unfold withdraw in H. destruct (mem2 (n, name) (ads s)).
  - inversion H; reflexivity.
  - destruct v; [inversion H; reflexivity | discriminate].
Qed.

Theorem close_is_idempotent : forall s id s1,
  step Fixed s (PcClose id) = Ok s1 -> step Fixed s1 (PcClose id) = Ok s1.
Proof.
  intros s id s1 H. cbn [step] in *. destruct (lookup id (socks s)) as [k|] eqn:L; [|discriminate].
  unfold close_psock in H. destruct (k_closed k) eqn:C.
  - inversion H; subst. rewrite L. unfold close_psock. now rewrite C.
  - set (k' := {| k_node := k_node k; k_name := k_name k; k_adv := k_adv k; k_closed := true; k_parked := 0 |}) in *.
    assert (L1 : lookup id (socks s1) = Some k').
    { destruct (k_adv k).
      - apply withdraw_socks in H. rewrite H. cbn [socks set_socks]. now apply lookup_update_same with (v := k).
      - inversion H; subst. cbn [socks set_socks]. now apply lookup_update_same with (v := k). }
    rewrite L1. unfold close_psock. reflexivity.
Qed.

(* the pinned tree: the second Close of an old socket unregisters the newer socket of that name *)
Definition h_reuse : list op :=
  [ListenPacket 1 0 10 false; PcClose 1; ListenPacket 2 0 10 false; PcClose 1].
Theorem pinned_second_close_unregisters_refuted :
  (exists s, run Pinned init h_reuse = Ok s /\ registry Pinned s 0 = []) /\
  (exists s, run Fixed init h_reuse = Ok s /\ registry Fixed s 0 = [10]).
Proof. split; vm_compute; eexists; split; reflexivity. Qed.

(* CancelRead, deadlines, reads and writes are modelled as changing nothing *)
Theorem stream_op_changes_nothing : forall v s cid d,
  step v s (StreamOp cid d) = Ok s \/ step v s (StreamOp cid d) = Reject.
Proof. intros. cbn [step]. destruct (lookup cid (conns s)); auto. Qed.

Theorem pinned_failed_ping_refuted :
  exists s, run Pinned init [PingOp 0 false; PingOp 0 true; PingOp 0 false; PingOp 0 false] = Ok s /\
            goroutines Pinned s SPing 0 = 3%nat.
Proof. vm_compute. eexists. split; reflexivity. Qed.

Lemma run_after_stream_ops : forall v s ops h,
  Forall (fun x => exists cid d, x = StreamOp cid d) ops -> run v s (ops ++ h) = run v s h.
Proof.
  intros v s ops h H. induction H as [|x ops [cid [d E]] _ IH]; [reflexivity|].
  subst x. cbn [app run]. destruct (stream_op_changes_nothing v s cid d) as [R|R]; rewrite R; exact IH.
Qed.

(* non-vacuity: sockets, a subscription, waiting deliverers, a listener, two connections and a
   ping; every object closed, some twice *)
Definition h_full : list op :=
  [ListenPacket 1 0 10 true; Subscribe 2 1; Park 1; Park 1; Listen 3 1 11 true; DialOk 4 0 3 20; DialOk 5 1 3 21;
   PingOp 0 false; ConnClose 4 true; CloseConnection 5 false; PcClose 1; PcClose 1; SubDone 2; ConnClose 4 false;
   ConnClose 5 true; LiClose 3; LiClose 3].
Example full_history_all_closed :
  exists s, run Fixed init h_full = Ok s /\ all_closed s = true /\ length (conns s) = 2%nat.
Proof. vm_compute. eexists. repeat split; reflexivity. Qed.

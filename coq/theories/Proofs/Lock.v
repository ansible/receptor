(* Proofs/Lock.v — linearizability of the status-file protocol of Model/Lock.v (C14):
   for every schedule, the concurrent execution with the lock equals the execution of the same
   operations one at a time in lock-acquisition order; without the lock it does not. *)
From Coq Require Import ZArith Lia.
From Receptor Require Import Base.ListFacts Model.Lock.

Lemma upd_length {A} n (x : A) l : length (upd n x l) = length l.
Proof. revert n; induction l as [|h t IH]; intros [|n]; simpl; auto. Qed.

Lemma nth_error_upd_same {A} n (x y : A) l : nth_error l n = Some y -> nth_error (upd n x l) n = Some x.
Proof. revert n; induction l as [|h t IH]; intros [|n] H; simpl in *; try discriminate; auto. Qed.

Lemma nth_error_upd_neq {A} n m (x : A) l : n <> m -> nth_error (upd n x l) m = nth_error l m.
Proof.
  revert n m; induction l as [|h t IH]; intros [|n] [|m] H; simpl; auto; try congruence.
Qed.

Lemma map_upd {A B} (f : A -> B) n x l : map f (upd n x l) = upd n (f x) (map f l).
Proof. revert n; induction l as [|h t IH]; intros [|n]; simpl; auto. now rewrite IH. Qed.

Lemma upd_upd {A} n (x y : A) l : upd n y (upd n x l) = upd n y l.
Proof. revert n; induction l as [|h t IH]; intros [|n]; simpl; auto. now rewrite IH. Qed.

Lemma upd_same {A} n (x : A) l : nth_error l n = Some x -> upd n x l = l.
Proof.
  revert n; induction l as [|h t IH]; intros [|n] H; simpl in *; try discriminate; auto.
  - now inversion H.
  - now rewrite IH.
Qed.

Lemma nth_upd_eq {A} n (x d : A) l : (n < length l)%nat -> nth n (upd n x l) d = x.
Proof. intro H. now apply nth_error_nth, (nth_error_upd_same _ _ (nth n l d)), nth_error_nth'. Qed.

Lemma nth_upd_neq {A} n m (x d : A) l : n <> m -> nth m (upd n x l) d = nth m l d.
Proof. intro H. rewrite <- !nth_default_eq. unfold nth_default. now rewrite nth_error_upd_neq. Qed.

Section LockProofs.
Variable R : Type.
Notation conf := (conf R).
Notation astate := (astate R).

Lemma run_preserves locking (P : conf -> Prop) :
  (forall p c, P c -> P (step locking p c)) -> forall sched c, P c -> P (run locking sched c).
Proof. intros HP sched. apply (fold_left_invariant (fun c p => step locking p c)). auto. Qed.

Lemma atomic_run_snoc (a : astate) l po : atomic_run a (l ++ [po]) = atomic_op (atomic_run a l) po.
Proof. unfold atomic_run. now rewrite fold_left_app. Qed.

Lemma atomic_op_length (a : astate) po : length (a_mems (atomic_op a po)) = length (a_mems a).
Proof.
  unfold atomic_op. destruct (nth_error (a_mems a) (fst po)); auto.
  destruct (snd po); simpl; auto; now rewrite upd_length.
Qed.

Lemma atomic_run_length (a : astate) l : length (a_mems (atomic_run a l)) = length (a_mems a).
Proof.
  unfold atomic_run. apply fold_left_invariant; [|reflexivity].
  intros po a' _ H. now rewrite atomic_op_length.
Qed.

Lemma apply_all_snoc (fs : list (R -> R)) f r : apply_all (fs ++ [f]) r = f (apply_all fs r).
Proof. unfold apply_all. now rewrite fold_left_app. Qed.

Lemma upd_fns_app (l1 l2 : list (nat * op R)) : upd_fns (l1 ++ l2) = upd_fns l1 ++ upd_fns l2.
Proof. induction l1 as [|[p []] l IH]; simpl; now rewrite ?IH. Qed.

Lemma ops_of_app q (l1 l2 : list (nat * op R)) : ops_of q (l1 ++ l2) = ops_of q l1 ++ ops_of q l2.
Proof.
  induction l1 as [|[p o] l IH]; simpl; auto. destruct (Nat.eqb p q); simpl; now rewrite IH.
Qed.

Lemma in_ops_of (order : list (nat * op R)) p o : In (p, o) order -> In o (ops_of p order).
Proof.
  induction order as [|[q o'] l IH]; simpl; [contradiction|].
  intros [E|H].
  - inversion E; subst. rewrite Nat.eqb_refl. now left.
  - destruct (Nat.eqb q p); [right|]; auto.
Qed.

Lemma no_saves_firstn n (order : list (nat * op R)) : no_saves order = true -> no_saves (firstn n order) = true.
Proof.
  unfold no_saves. intro H. rewrite <- (firstn_skipn n order), forallb_app in H.
  now apply andb_true_iff in H.
Qed.

Lemma atomic_file_fold order : forall (a : astate) r,
  Forall (fun po => (fst po < length (a_mems a))%nat) order ->
  no_saves order = true ->
  a_file a = FRec r ->
  a_file (atomic_run a order) = FRec (apply_all (upd_fns order) r).
Proof.
  unfold atomic_run, apply_all, no_saves.
  induction order as [|[p o] l IH]; intros a r Hr Hs Hf; simpl in *; [assumption|].
  apply andb_true_iff in Hs as (Hs1 & Hs2). inversion Hr as [|? ? Hp Hr']; subst. simpl in Hp.
  destruct (nth_error (a_mems a) p) as [m|] eqn:Hm; [|apply nth_error_None in Hm; lia].
  rewrite <- (atomic_op_length a (p, o)) in Hr'.
  destruct o; [| |discriminate]; apply IH; auto.
  all: unfold atomic_op; simpl; now rewrite Hm, Hf.
Qed.

Lemma atomic_load_on_empty (a : astate) p : a_file a = FEmpty ->
  a_file (atomic_op a (p, OLoad)) = FEmpty /\ a_mems (atomic_op a (p, OLoad)) = a_mems a.
Proof.
  intro Hf. unfold atomic_op; simpl. destruct (nth_error (a_mems a) p) eqn:Hm; [|auto].
  rewrite Hf; simpl. auto using upd_same.
Qed.

Lemma atomic_loads_on_empty loads : forall (a : astate),
  Forall (fun po => snd po = OLoad) loads -> a_file a = FEmpty ->
  a_file (atomic_run a loads) = FEmpty /\ a_mems (atomic_run a loads) = a_mems a.
Proof.
  induction loads as [|[p o] l IH]; intros a Hl Hf; [auto|].
  inversion Hl as [|? ? Ho Hl']; subst. simpl in Ho; subst o.
  destruct (atomic_load_on_empty a p Hf) as (H1 & H2).
  destruct (IH _ Hl' H1) as (H3 & H4). split; [exact H3 | now rewrite <- H2].
Qed.

(* when no record is stored yet the first update starts from the in-memory record of the process
   that makes it: UpdateFullStatus skips the read of an empty file *)
Lemma atomic_file_fold_empty loads p f rest (a : astate) m :
  Forall (fun po => snd po = OLoad) loads ->
  Forall (fun po => (fst po < length (a_mems a))%nat) rest -> no_saves rest = true ->
  a_file a = FEmpty -> nth_error (a_mems a) p = Some m ->
  a_file (atomic_run a (loads ++ (p, OUpd f) :: rest)) = FRec (apply_all (upd_fns rest) (f m)).
Proof.
  intros Hl Hr Hns Hf Hm. unfold atomic_run. rewrite fold_left_app. fold (atomic_run a loads). simpl.
  destruct (atomic_loads_on_empty loads a Hl Hf) as (H1 & H2). rewrite <- H2 in Hm, Hr.
  apply (atomic_file_fold rest); [now rewrite atomic_op_length | assumption |].
  unfold atomic_op; simpl. now rewrite Hm, H1.
Qed.

Lemma atomic_file_whole order (a : astate) :
  (exists r, a_file a = FRec r) -> exists r, a_file (atomic_run a order) = FRec r.
Proof.
  unfold atomic_run. apply (fold_left_invariant atomic_op (fun a => exists r, a_file a = FRec r)).
  intros po a' _ (r & Hf).
  unfold atomic_op. destruct (nth_error (a_mems a') (fst po)); [|eauto].
  destruct (snd po); simpl; eauto.
Qed.

Lemma atomic_op_reads (a : astate) po pv :
  In pv (a_reads (atomic_op a po)) -> In pv (a_reads a) \/ pv = (fst po, a_file a).
Proof.
  unfold atomic_op. destruct (nth_error (a_mems a) (fst po)); [|auto].
  destruct (snd po); simpl; auto; intro H; apply in_app_or in H as [H|[H|[]]]; auto.
Qed.

Lemma atomic_reads_prefix l : forall (a : astate) pv, In pv (a_reads (atomic_run a l)) ->
  In pv (a_reads a) \/ exists n, (n < length l)%nat /\ snd pv = a_file (atomic_run a (firstn n l)).
Proof.
  induction l as [|po l IH]; intros a pv Hin; [now left|].
  apply (IH (atomic_op a po)) in Hin as [Hin | (n & Hn & E)].
  - apply atomic_op_reads in Hin as [Hin | ->]; [now left|].
    right. exists 0%nat. simpl. split; [lia|reflexivity].
  - right. exists (S n). simpl. split; [lia|assumption].
Qed.

Definition mems (c : conf) : list R := map p_mem (c_procs c).

(* The invariant is a refinement mapping.  An operation enters the order when its process takes the
   lock.  From then on what the critical section will have left behind at its end ([finish]: file,
   record of the process, read log; [abs]: the whole abstract state) is what the atomic run of the
   order leaves behind: taking the lock makes it so ([atomic_op_finish]) and no step of the section
   changes it, the unlock step included, where it is the state reached. *)
Definition finish (p : nat) (ph : phase R) (file : fcontent R) (m : R) (reads : list (nat * fcontent R))
  : fcontent R * R * list (nat * fcontent R) :=
  match ph with
  | ULocked f | UOpened f => (FRec (f (read_into file m)), f (read_into file m), reads ++ [(p, file)])
  | UReadDone f => (FRec (f m), f m, reads)
  | UApplied _ | UTrunced _ | SvLocked | SvTrunced => (FRec m, m, reads)
  | LLocked | LOpened => (file, read_into file m, reads ++ [(p, file)])
  | Idle | UWritten _ | LReadDone | SvWritten | SvPre => (file, m, reads)
  end.

Definition commit (p : nat) (ms : list R) (x : fcontent R * R * list (nat * fcontent R)) : astate :=
  mkA (fst (fst x)) (upd p (snd (fst x)) ms) (snd x).

Lemma commit_upd p m ms x : commit p (upd p m ms) x = commit p ms x.
Proof. unfold commit. now rewrite upd_upd. Qed.

Lemma atomic_op_finish (a : astate) p o m : nth_error (a_mems a) p = Some m ->
  atomic_op a (p, o) = commit p (a_mems a) (finish p (first_phase o) (a_file a) m (a_reads a)).
Proof.
  intro Hm. unfold atomic_op; simpl. rewrite Hm.
  destruct o; unfold commit; simpl; auto. now rewrite upd_same.
Qed.

Lemma finish_reads p ph file m reads : incl reads (snd (finish p ph file m reads)).
Proof. destruct ph; simpl; auto using incl_refl, incl_appl. Qed.

Definition plain (c : conf) : astate := mkA (c_file c) (mems c) (c_reads c).

Definition abs (c : conf) : astate :=
  match c_lock c with
  | Some p =>
      match nth_error (c_procs c) p with
      | Some pr => commit p (mems c) (finish p (p_phase pr) (c_file c) (p_mem pr) (c_reads c))
      | None => plain c
      end
  | None => plain c
  end.

Definition Inv (a0 : astate) (c : conf) : Prop :=
  (forall q pr, nth_error (c_procs c) q = Some pr -> c_lock c <> Some q -> p_phase pr = Idle) /\
  abs c = atomic_run a0 (c_order c).

Lemma holder_or_idle a0 (c : conf) p pr : Inv a0 c -> nth_error (c_procs c) p = Some pr ->
  p_phase pr = Idle \/ c_lock c = Some p.
Proof.
  intros (Hidle & _) Hp. destruct (c_lock c) as [h|] eqn:Hl.
  - destruct (Nat.eq_dec h p) as [->|Hne]; [now right|]. left. apply (Hidle _ _ Hp). congruence.
  - left. apply (Hidle _ _ Hp). discriminate.
Qed.

(* process [p], which may move, becomes [pr'], keeping or taking the lock, or giving it up as it
   becomes idle: the abstract state is where the section of [pr'] ends *)
Lemma inv_upd a0 (c : conf) p pr pr' file' lock' order' reads' trace' :
  Inv a0 c -> nth_error (c_procs c) p = Some pr ->
  c_lock c = None \/ c_lock c = Some p ->
  lock' = Some p \/ lock' = None /\ p_phase pr' = Idle ->
  commit p (mems c) (finish p (p_phase pr') file' (p_mem pr') reads') = atomic_run a0 order' ->
  Inv a0 (mkConf file' lock' (upd p pr' (c_procs c)) order' reads' trace').
Proof.
  intros (Hidle & _) Hp Hmay Hlock E. split; simpl.
  - intros q prq Hq Hne. destruct (Nat.eq_dec q p) as [->|Hqp].
    + rewrite (nth_error_upd_same _ _ _ _ Hp) in Hq. inversion Hq; subst prq.
      destruct Hlock as [->|[_ Hi]]; [contradiction|assumption].
    + rewrite nth_error_upd_neq in Hq by congruence. apply (Hidle _ _ Hq).
      destruct Hmay as [->| ->]; congruence.
  - rewrite <- E. unfold abs, plain, mems; simpl. rewrite map_upd.
    destruct Hlock as [->|[-> Hi]].
    + rewrite (nth_error_upd_same _ _ _ _ Hp). apply commit_upd.
    + now rewrite Hi.
Qed.

Lemma step_inv a0 (c : conf) p : Inv a0 c -> Inv a0 (step true p c).
Proof.
  intro HI. unfold step.
  destruct (nth_error (c_procs c) p) as [pr|] eqn:Hp; [|assumption].
  pose proof (proj2 HI) as Habs. unfold abs in Habs.
  destruct (holder_or_idle _ _ _ _ HI Hp) as [Hidle | Hl].
  - rewrite Hidle. destruct (p_ops pr) as [|o rest]; [assumption|].
    destruct (c_lock c) eqn:Hl; simpl; [assumption|].
    (* taking the lock: the operation goes into the order, and is what its section will have done *)
    apply (inv_upd _ _ _ pr); auto. simpl. rewrite atomic_run_snoc, <- Habs. symmetry.
    apply (atomic_op_finish (plain c)). now apply map_nth_error.
  - rewrite Hl, Hp in Habs. rewrite Hl.
    (* every step of the section, the unlock step included, leaves [finish] as it is, by
       computation.  Left are Idle (an idle holder does not occur, and would not move) and SvPre,
       no phase of this protocol *)
    destruct (p_phase pr) eqn:Hph;
      try (apply (inv_upd _ _ _ pr); auto; simpl; rewrite <- Habs; reflexivity).
    + destruct (p_ops pr); assumption.
    + assumption.
Qed.

Lemma run_inv (file0 : fcontent R) (progs : list (list (op R) * R)) sched :
  Inv (a_init file0 progs) (run true sched (init file0 progs)).
Proof.
  apply run_preserves; [intros p c; apply step_inv|]. split; simpl.
  - intros q pr H _. apply nth_error_In, in_map_iff in H as (x & <- & _). reflexivity.
  - unfold abs, plain, mems, a_init, init, init_procs; simpl. now rewrite map_map.
Qed.

Lemma inv_reads a0 (c : conf) : Inv a0 c -> incl (c_reads c) (a_reads (atomic_run a0 (c_order c))).
Proof.
  intros (_ & <-). unfold abs.
  destruct (c_lock c) as [p|]; [destruct (nth_error (c_procs c) p)|];
    simpl; auto using finish_reads, incl_refl.
Qed.

(* what a process has put into the order, followed by what it has still to do, is its program *)
Definition Book (progs : list (list (op R) * R)) (c : conf) : Prop :=
  Forall (fun po => (fst po < length progs)%nat) (c_order c) /\
  forall q, option_map (fun pr => ops_of q (c_order c) ++ p_ops pr) (nth_error (c_procs c) q) =
            option_map fst (nth_error progs q).

Lemma book_upd progs (c : conf) p pr ph m file lock reads trace :
  Book progs c -> nth_error (c_procs c) p = Some pr ->
  Book progs (mkConf file lock (upd p (mkProc (p_ops pr) ph m) (c_procs c)) (c_order c) reads trace).
Proof.
  intros (Hord & HB) Hp. split; [assumption|]. simpl. intro q. rewrite <- HB.
  destruct (Nat.eq_dec p q) as [<-|Hne].
  - now rewrite (nth_error_upd_same _ _ _ _ Hp), Hp.
  - now rewrite nth_error_upd_neq.
Qed.

Lemma step_book locking progs (c : conf) p : Book progs c -> Book progs (step locking p c).
Proof.
  intro HB. unfold step.
  destruct (nth_error (c_procs c) p) as [pr|] eqn:Hp; [|assumption].
  destruct (p_phase pr) eqn:Hph; try (now apply book_upd); try assumption.
  (* taking the lock moves the head of the program to the end of the order *)
  destruct (p_ops pr) as [|o rest] eqn:Hops; [assumption|].
  destruct (locking && is_some (c_lock c)); [assumption|].
  destruct HB as (Hord & HB). split; simpl.
  - apply Forall_app. split; [assumption|]. constructor; [|constructor].
    apply nth_error_Some. simpl. intro E. specialize (HB p). rewrite Hp, E in HB. discriminate.
  - intro q. rewrite <- HB. destruct (Nat.eq_dec p q) as [<-|Hne].
    + rewrite (nth_error_upd_same _ _ _ _ Hp), Hp. simpl.
      rewrite ops_of_app. simpl. now rewrite Nat.eqb_refl, Hops, <- app_assoc.
    + rewrite nth_error_upd_neq by assumption. destruct (nth_error (c_procs c) q); [simpl|reflexivity].
      apply Nat.eqb_neq in Hne. rewrite ops_of_app. simpl. now rewrite Hne, app_nil_r.
Qed.

Lemma run_book locking (file0 : fcontent R) (progs : list (list (op R) * R)) sched :
  Book progs (run locking sched (init file0 progs)).
Proof.
  apply run_preserves; [intros p c; apply step_book|].
  split; [constructor|]. intro q. unfold init, init_procs; simpl. rewrite nth_error_map.
  now destruct (nth_error progs q).
Qed.

Theorem linearizable (file0 : fcontent R) (progs : list (list (op R) * R)) sched :
  let c := run true sched (init file0 progs) in
  let a := atomic_run (a_init file0 progs) (c_order c) in
  c_lock c = None ->
  c_file c = a_file a /\ map p_mem (c_procs c) = a_mems a /\ c_reads c = a_reads a.
Proof.
  intros c a Hl. destruct (run_inv file0 progs sched) as (_ & HI).
  unfold abs in HI. fold c in HI. rewrite Hl in HI. fold a in HI. rewrite <- HI. auto.
Qed.

Theorem no_update_lost locking (file0 : fcontent R) (progs : list (list (op R) * R)) sched :
  let c := run locking sched (init file0 progs) in
  all_done c = true ->
  forall q pm, nth_error progs q = Some pm -> ops_of q (c_order c) = fst pm.
Proof.
  intros c Hd q pm Hq.
  destruct (run_book locking file0 progs sched) as (_ & HB). specialize (HB q). fold c in HB.
  rewrite Hq in HB. destruct (nth_error (c_procs c) q) as [pr|] eqn:Hpr; [|discriminate].
  injection HB as <-.
  unfold all_done in Hd. rewrite forallb_forall in Hd.
  specialize (Hd pr (nth_error_In _ _ Hpr)). unfold proc_done in Hd.
  destruct (p_phase pr); try discriminate. destruct (p_ops pr); try discriminate.
  now rewrite app_nil_r.
Qed.

Lemma order_in_range locking (file0 : fcontent R) (progs : list (list (op R) * R)) sched :
  Forall (fun po => (fst po < length (a_mems (a_init file0 progs)))%nat)
         (c_order (run locking sched (init file0 progs))).
Proof. simpl. rewrite map_length. exact (proj1 (run_book locking file0 progs sched)). Qed.

Theorem updates_linearizable (r0 : R) (progs : list (list (op R) * R)) sched :
  let c := run true sched (init (FRec r0) progs) in
  c_lock c = None -> no_saves (c_order c) = true ->
  c_file c = FRec (apply_all (upd_fns (c_order c)) r0).
Proof.
  intros c Hl Hns. destruct (linearizable (FRec r0) progs sched Hl) as (H & _). fold c in H. rewrite H.
  apply atomic_file_fold; auto. apply order_in_range.
Qed.

(* a Read returns the file as it was before its own operation took effect: the prefix is proper *)
Lemma reads_are_earlier_states (file0 : fcontent R) (progs : list (list (op R) * R)) sched :
  let c := run true sched (init file0 progs) in
  forall pv, In pv (c_reads c) ->
  exists n, (n < length (c_order c))%nat /\
            snd pv = a_file (atomic_run (a_init file0 progs) (firstn n (c_order c))).
Proof.
  intros c pv Hin.
  now apply (inv_reads _ _ (run_inv file0 progs sched)), atomic_reads_prefix in Hin as [[] | H].
Qed.

Theorem reads_are_prefix_states (file0 : fcontent R) (progs : list (list (op R) * R)) sched :
  let c := run true sched (init file0 progs) in
  forall pv, In pv (c_reads c) ->
  exists n, (n <= length (c_order c))%nat /\
            snd pv = a_file (atomic_run (a_init file0 progs) (firstn n (c_order c))).
Proof.
  intros c pv Hin. destruct (reads_are_earlier_states file0 progs sched pv Hin) as (n & Hn & E).
  exists n. split; [apply Nat.lt_le_incl|]; assumption.
Qed.

Theorem loads_see_whole_records (r0 : R) (progs : list (list (op R) * R)) sched :
  let c := run true sched (init (FRec r0) progs) in
  forall pv, In pv (c_reads c) ->
  exists n r, (n <= length (c_order c))%nat /\ snd pv = FRec r /\
              a_file (atomic_run (a_init (FRec r0) progs) (firstn n (c_order c))) = FRec r.
Proof.
  intros c pv Hin.
  destruct (reads_are_prefix_states (FRec r0) progs sched pv Hin) as (n & Hn & E). fold c in E.
  destruct (atomic_file_whole (firstn n (c_order c)) (a_init (FRec r0) progs)) as (r & Er); [now exists r0|].
  exists n, r. rewrite E. auto.
Qed.

(* without Saves the stored record of the one-at-a-time execution after ANY prefix of the order is
   the fold of the update functions of that prefix *)
Lemma prefix_file_fold (r0 : R) (progs : list (list (op R) * R)) sched n :
  let c := run true sched (init (FRec r0) progs) in
  no_saves (c_order c) = true ->
  a_file (atomic_run (a_init (FRec r0) progs) (firstn n (c_order c))) =
  FRec (apply_all (upd_fns (firstn n (c_order c))) r0).
Proof.
  intros c Hns. apply atomic_file_fold; auto; [|now apply no_saves_firstn].
  pose proof (order_in_range true (FRec r0) progs sched) as Hr. fold c in Hr.
  rewrite <- (firstn_skipn n (c_order c)) in Hr. now apply Forall_app in Hr.
Qed.

End LockProofs.

(* what breaks it: the same code without lockStatusFile *)
Definition inc_fst (r : N * N) : N * N := (fst r + 1, snd r).
Definition inc_snd (r : N * N) : N * N := (fst r, snd r + 1).
Definition two_writers : list (list (op (N * N)) * (N * N)) :=
  [([OUpd inc_fst], (0, 0)); ([OUpd inc_snd], (0, 0))].
(* both read, then both write *)
Definition lost_sched : list nat := [0; 0; 0; 1; 1; 1; 0; 0; 0; 0; 1; 1; 1; 1]%nat.

(* with the lock the very same schedule loses nothing (process 1 simply waits) *)
Example locked_same_schedule :
  let c := run true (lost_sched ++ [1; 1; 1; 1; 1; 1; 1]%nat) (init (FRec (0, 0)) two_writers) in
  all_done c = true /\ c_file c = FRec (1, 1).
Proof. vm_compute. auto. Qed.

Definition writer_and_reader : list (list (op (N * N)) * (N * N)) :=
  [([OUpd inc_fst], (0, 0)); ([OLoad], (7, 7))].
(* the writer has truncated and not yet written when the reader reads *)
Definition torn_sched : list nat := [0; 0; 0; 0; 0; 1; 1; 1]%nat.

(* Save that truncates BEFORE taking the lock (seeded mutation): a reader that holds the lock
   finds the file empty although a record was stored all the time *)
Definition saver_and_reader : list (list (op (N * N)) * (N * N)) :=
  [([OSave], (5, 5)); ([OLoad], (7, 7))].
(* the reader locks and opens, the saver truncates, the reader reads *)
Definition early_trunc_sched : list nat := [1; 1; 0; 1; 1; 0; 0; 0]%nat.

Theorem save_truncating_before_lock_refuted :
  let c := run_early early_trunc_sched (init (FRec (0, 0)) saver_and_reader) in
  In (1%nat, FEmpty) (c_reads c) /\ all_done c = true /\ c_file c = FRec (5, 5).
Proof. vm_compute. auto. Qed.

(* the code as written, on the same schedule (the saver waits for the lock): the reader sees the
   stored record *)
Example save_under_lock_same_schedule :
  let c := run true (early_trunc_sched ++ [0; 0]%nat) (init (FRec (0, 0)) saver_and_reader) in
  c_reads c = [(1%nat, FRec (0, 0))] /\ all_done c = true /\ c_file c = FRec (5, 5).
Proof. vm_compute. auto. Qed.

(* saveStdoutSize as "Load ; Save" (seeded mutation) instead of one UpdateFullStatus: both halves
   hold the lock, and still the update that falls between them is overwritten by the stale record *)
Definition loadsave_and_writer : list (list (op (N * N)) * (N * N)) :=
  [([OLoad; OSave], (9, 9)); ([OUpd inc_fst], (0, 0))].
(* process 0 loads, process 1 updates, process 0 saves what it loaded *)
Definition loadsave_sched : list nat := [0; 0; 0; 0; 1; 1; 1; 1; 1; 1; 1; 0; 0; 0; 0]%nat.

Theorem load_then_save_refuted :
  let c := run true loadsave_sched (init (FRec (0, 0)) loadsave_and_writer) in
  all_done c = true /\ c_lock c = None /\
  upd_fns (c_order c) = [inc_fst] /\ c_file c = FRec (0, 0) /\
  apply_all (upd_fns (c_order c)) (0, 0) = (1, 0).
Proof. vm_compute. auto. Qed.

(* as /repo does it - one update that sets the size (second component) - nothing is lost, whatever
   the order *)
Example size_update_keeps_other_field :
  let progs := [([OUpd (fun r : N * N => (fst r, 7))], (9, 9)); ([OUpd inc_fst], (0, 0))] in
  c_file (run true [0; 0; 0; 1; 0; 0; 0; 0; 1; 1; 1; 1; 1; 1; 1]%nat (init (FRec (0, 0)) progs)) = FRec (1, 7) /\
  c_file (run true [1; 1; 1; 1; 1; 1; 1; 0; 0; 0; 0; 0; 0; 0]%nat (init (FRec (0, 0)) progs)) = FRec (1, 7).
Proof. vm_compute. auto. Qed.

Definition nsum (l : list N) : N := fold_right N.add 0 l.

Lemma nsum_upd n x l : (n < length l)%nat -> nsum (upd n x l) + nth n l 0 = nsum l + x.
Proof.
  revert n; induction l as [|h t IH]; intros [|n] H; simpl in *; try lia.
  specialize (IH n). lia.
Qed.

Lemma nsum_repeat0 n : nsum (repeat 0 n) = 0.
Proof. induction n; simpl; auto. Qed.

Definition is_upd (o : op crec) : bool := match o with OUpd _ => true | _ => false end.
Definition is_incr (k : kop) : bool := match k with KIncr => true | _ => false end.
Definition is_ksave (k : kop) : bool := match k with KSave => true | _ => false end.
Definition no_ksave (progs : list (list kop)) : bool := forallb (forallb (fun k => negb (is_ksave k))) progs.
Definition count_incr (ks : list kop) : nat := length (filter is_incr ks).

Definition own_op (po : nat * op crec) : Prop := snd po = OLoad \/ snd po = OUpd (incr (fst po)).

Lemma own_no_saves order : Forall own_op order -> no_saves order = true.
Proof.
  intro H. apply forallb_forall. intros po Hin. rewrite Forall_forall in H.
  destruct (H po Hin) as [-> | ->]; reflexivity.
Qed.

(* by induction from the end of the order: a further Load changes nothing; a further increment by
   [p] adds one to the shared counter, to counter [p] and to the number of updates of [p] in the order *)
Lemma own_counters nw order :
  Forall own_op order -> Forall (fun po => (fst po < nw)%nat) order ->
  let r := apply_all (upd_fns order) (crec0 nw) in
  length (snd r) = nw /\ fst r = nsum (snd r) /\
  forall w, (w < nw)%nat -> nth w (snd r) 0 = N.of_nat (length (filter is_upd (ops_of w order))).
Proof.
  induction order as [|[p o] l IH] using rev_ind; intros Hown Hrange.
  - simpl. split; [apply repeat_length|]. split; [now rewrite nsum_repeat0|].
    intros w _. apply nth_repeat.
  - apply Forall_app in Hown as (Hown & Ho), Hrange as (Hrange & Hp).
    apply Forall_inv in Ho, Hp. simpl in Hp.
    destruct (IH Hown Hrange) as (H1 & H2 & H3). clear IH.
    rewrite upd_fns_app. destruct Ho as [E|E]; simpl in E; subst o; simpl.
    + rewrite app_nil_r. split; [|split]; auto.
      intros w Hw. rewrite ops_of_app, filter_app; simpl.
      destruct (Nat.eqb p w); simpl; rewrite app_nil_r; auto.
    + rewrite apply_all_snoc. set (r := apply_all (upd_fns l) (crec0 nw)) in *.
      unfold incr; simpl. rewrite upd_length. split; [|split]; auto.
      * pose proof (nsum_upd p (nth p (snd r) 0 + 1) (snd r)). lia.
      * intros w Hw. rewrite ops_of_app, filter_app, app_length; simpl.
        destruct (Nat.eqb_spec p w) as [->|Hne]; simpl.
        -- rewrite nth_upd_eq, H3 by lia. lia.
        -- rewrite nth_upd_neq, H3 by assumption. lia.
Qed.

Lemma kprogs_from_nth nw ps : forall w q,
  nth_error (kprogs_from nw w ps) q =
  option_map (fun ks => (map (kop_op (w + q)) ks, crec0 nw)) (nth_error ps q).
Proof.
  induction ps as [|p r IH]; intros w [|q]; simpl; auto.
  - now rewrite Nat.add_0_r.
  - rewrite IH. now rewrite Nat.add_succ_r.
Qed.

Lemma kprogs_length nw ps : length (kprogs nw ps) = length ps.
Proof.
  unfold kprogs. generalize 0%nat. induction ps as [|p r IH]; intro w; simpl; auto.
Qed.

Lemma filter_kop_op w ks : length (filter is_upd (map (kop_op w) ks)) = count_incr ks.
Proof.
  unfold count_incr. induction ks as [|k r IH]; simpl; auto. destruct k; simpl; auto.
Qed.

Theorem counters_exact (progs : list (list kop)) sched :
  let nw := length progs in
  let c := run true sched (init (FRec (crec0 nw)) (kprogs nw progs)) in
  no_ksave progs = true -> all_done c = true -> c_lock c = None ->
  exists r, c_file c = FRec r /\
            snd r = map (fun ks => N.of_nat (count_incr ks)) progs /\
            fst r = nsum (snd r).
Proof.
  intros nw c Hnk Hdone Hl.
  pose proof (updates_linearizable _ (crec0 nw) (kprogs nw progs) sched Hl) as Hfile. fold c in Hfile.
  pose proof (order_in_range _ true (FRec (crec0 nw)) (kprogs nw progs) sched) as Hrange.
  fold c in Hrange. simpl in Hrange. rewrite map_length, kprogs_length in Hrange. fold nw in Hrange.
  assert (Hops : forall q, (q < nw)%nat -> ops_of q (c_order c) = map (kop_op q) (nth q progs [])).
  { intros q Hq.
    apply (no_update_lost _ true (FRec (crec0 nw)) (kprogs nw progs) sched Hdone q (_, crec0 nw)).
    unfold kprogs. now rewrite kprogs_from_nth, (nth_error_nth' progs [] Hq). }
  assert (Hown : Forall own_op (c_order c)).
  { apply Forall_forall. intros [p o] Hin.
    rewrite Forall_forall in Hrange. specialize (Hrange _ Hin). simpl in Hrange.
    apply in_ops_of in Hin. rewrite (Hops _ Hrange) in Hin. apply in_map_iff in Hin as (k & <- & Hk).
    destruct k; [now right | now left | exfalso].
    unfold no_ksave in Hnk. rewrite forallb_forall in Hnk.
    specialize (Hnk _ (nth_In progs [] Hrange)). rewrite forallb_forall in Hnk.
    discriminate (Hnk KSave Hk). }
  destruct (own_counters nw _ Hown Hrange) as (H1 & H2 & H3).
  eexists. split; [exact (Hfile (own_no_saves _ Hown))|]. split; [|exact H2].
  apply nth_ext with (d := 0) (d' := 0); [now rewrite map_length|].
  intros w Hlt. rewrite H1 in Hlt. rewrite H3, (Hops _ Hlt), filter_kop_op by assumption.
  change 0 with ((fun ks => N.of_nat (count_incr ks)) []). now rewrite map_nth.
Qed.

Section CacheIndependence.
Variable R : Type.

(* an update is a function of the STORED record: the writer's cached copy does not enter it *)
Lemma update_uses_stored_record (a : astate R) p f r m :
  a_file a = FRec r -> nth_error (a_mems a) p = Some m ->
  a_file (atomic_op a (p, OUpd f)) = FRec (f r) /\
  nth_error (a_mems (atomic_op a (p, OUpd f))) p = Some (f r).
Proof.
  intros Hf Hm. unfold atomic_op; simpl. rewrite Hm, Hf; simpl. split; auto.
  now apply (nth_error_upd_same _ _ m).
Qed.

Definition ctl (pr : proc R) : list (op R) * phase R := (p_ops pr, p_phase pr).
(* lock, order and the control part of every process: they evolve without looking at the records *)
Definition Sim (c1 c2 : conf R) : Prop :=
  c_lock c1 = c_lock c2 /\ c_order c1 = c_order c2 /\ map ctl (c_procs c1) = map ctl (c_procs c2).

Lemma sim_upd (c1 c2 : conf R) p x y lock order file1 file2 reads1 reads2 trace1 trace2 :
  map ctl (c_procs c1) = map ctl (c_procs c2) -> ctl x = ctl y ->
  Sim (mkConf file1 lock (upd p x (c_procs c1)) order reads1 trace1)
      (mkConf file2 lock (upd p y (c_procs c2)) order reads2 trace2).
Proof. intros Hp E. split; [|split]; simpl; auto. now rewrite !map_upd, Hp, E. Qed.

Lemma sim_step p (c1 c2 : conf R) : Sim c1 c2 -> Sim (step true p c1) (step true p c2).
Proof.
  intros HS. pose proof HS as (Hl & Ho & Hp). unfold step.
  pose proof (f_equal (fun l => nth_error l p) Hp) as Hn. simpl in Hn. rewrite !nth_error_map in Hn.
  destruct (nth_error (c_procs c1) p) as [x|], (nth_error (c_procs c2) p) as [y|]; try discriminate;
    [|assumption].
  injection Hn as Hops Hph. rewrite <- Hph, <- Hops, <- Hl, <- Ho.
  (* what a step writes into the control part depends on the control part only *)
  destruct (p_phase x); try (now apply sim_upd); try assumption.
  destruct (p_ops x) as [|o rest]; [assumption|].
  destruct (is_some (c_lock c1)); simpl; [assumption|]. now apply sim_upd.
Qed.

Theorem update_independent_of_cache (r0 : R) (progs1 progs2 : list (list (op R) * R)) sched :
  map fst progs1 = map fst progs2 ->
  let c1 := run true sched (init (FRec r0) progs1) in
  let c2 := run true sched (init (FRec r0) progs2) in
  c_lock c1 = None -> no_saves (c_order c1) = true ->
  c_file c1 = c_file c2.
Proof.
  intros Hm c1 c2 Hl Hns.
  assert (HS : Sim c1 c2).
  { apply (fold_left_related _ _ Sim); [intros; now apply sim_step|].
    split; [|split]; simpl; auto. unfold init_procs. rewrite !map_map. unfold ctl; simpl.
    rewrite <- !(map_map fst (fun ops => (ops, Idle))). now rewrite Hm. }
  destruct HS as (HSl & HSo & _).
  unfold c1, c2 in *. rewrite (updates_linearizable R r0 progs1 sched Hl Hns).
  rewrite HSl in Hl. rewrite HSo in Hns |- *. symmetry. now apply updates_linearizable.
Qed.

End CacheIndependence.

(* the cached shortcut (seeded mutation): writer 0 sets the first field to 1, writer 1 sets it to 2,
   writer 0 sets it to 1 again - its cached record already says 1, the update is skipped and
   reported done; the stored record keeps 2 *)
Definition set_fst (n : N) (r : N * N) : N * N := (n, snd r).
Definition same_nn (a b : N * N) : bool := (fst a =? fst b) && (snd a =? snd b).
Definition repeat_writers : list (list (op (N * N)) * (N * N)) :=
  [([OUpd (set_fst 1); OUpd (set_fst 1)], (0, 0)); ([OUpd (set_fst 2)], (0, 0))].
(* writer 0's first update, writer 1's update, writer 0's second update, each run to its end *)
Definition repeat_sched : list nat :=
  [0; 0; 0; 0; 0; 0; 0; 1; 1; 1; 1; 1; 1; 1; 0; 0; 0; 0; 0; 0; 0]%nat.

Theorem cached_shortcut_refuted :
  let c := run_cached same_nn repeat_sched (init (FRec (0, 0)) repeat_writers) in
  let c' := run true repeat_sched (init (FRec (0, 0)) repeat_writers) in
  all_done c = true /\ c_file c = FRec (2, 0) /\
  all_done c' = true /\ c_file c' = FRec (1, 0).
Proof. vm_compute. auto. Qed.

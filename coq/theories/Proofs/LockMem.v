(* Proofs/LockMem.v — over Model/LockMem.v: while statusLock is held around every file-lock section
   the in-memory record of a unit object only grows and stays a prefix of the stored one (C14). *)
From Coq Require Import List Bool.
Import ListNotations.
From Receptor Require Import Model.LockMem.

Lemma prefix_refl : forall a, is_prefix a a.
Proof. intro a; exists []; now rewrite app_nil_r. Qed.

Lemma prefix_trans : forall a b c, is_prefix a b -> is_prefix b c -> is_prefix a c.
Proof. intros a b c [x ->] [y ->]; exists (x ++ y); now rewrite app_assoc. Qed.

Lemma prefix_app : forall a x, is_prefix a (a ++ x).
Proof. intros; now exists x. Qed.

Lemma prefix_in : forall a b u, is_prefix a b -> In u a -> In u b.
Proof. intros a b u [x ->] H; apply in_or_app; now left. Qed.

Lemma mrun_snoc tr e s : mrun (tr ++ [e]) s = mstep (mrun tr s) e.
Proof. unfold mrun. now rewrite fold_left_app. Qed.

(* the invariant of nested traces, and that the in-memory record only grows *)
Lemma mstep_nested : forall s e, nested e = true -> is_prefix (m_mem s) (m_file s) ->
  is_prefix (m_mem s) (m_mem (mstep s e)) /\ is_prefix (m_mem (mstep s e)) (m_file (mstep s e)).
Proof.
  intros s e Hn Hp; destruct e; cbn in *; try discriminate.
  - split; [eapply prefix_trans; [exact Hp | apply prefix_app] | apply prefix_refl].
  - split; [exact Hp | apply prefix_refl].
  - split; [apply prefix_refl | eapply prefix_trans; [exact Hp | apply prefix_app]].
Qed.

Lemma mrun_nested : forall tr r, forallb nested tr = true ->
  let s := mrun tr (minit r) in
  is_prefix (m_mem s) (m_file s) /\ forall u, In (EUpd u) tr -> In u (m_mem s).
Proof.
  induction tr as [|e tr IH] using rev_ind; intros r Hn; cbn zeta.
  - split; [apply prefix_refl | contradiction].
  - rewrite forallb_app in Hn. apply andb_true_iff in Hn as [Ht He]. cbn in He.
    apply andb_true_iff in He as [He _].
    destruct (IH r Ht) as [P I]. rewrite mrun_snoc.
    destruct (mstep_nested _ e He P) as [Q1 Q2]. split; [exact Q2|].
    intros u Hin. apply in_app_or in Hin as [Hin | [-> | []]].
    + eapply prefix_in; eauto.
    + cbn. apply in_or_app. right. now left.
Qed.

(* an update or a Load through the object leaves in memory what it leaves in the file, whatever
   came before *)
Lemma mstep_publishes s e : nested e = true -> (forall u, e <> EExt u) ->
  m_mem (mstep s e) = m_file (mstep s e).
Proof. intros He Hx. destruct e; try discriminate; try reflexivity. now destruct (Hx u). Qed.

Theorem nested_publishes_the_file : forall tr r,
  forallb nested tr = true -> last_through_object tr = true ->
  let s := mrun tr (minit r) in m_mem s = m_file s.
Proof.
  intros tr r Hn Hl. unfold last_through_object in Hl.
  destruct (rev tr) as [|e rt] eqn:E; [discriminate|].
  apply (f_equal (@rev _)) in E. rewrite rev_involutive in E. subst tr.
  cbn zeta. cbn [rev] in *. rewrite mrun_snoc.
  rewrite forallb_app in Hn. apply andb_true_iff in Hn as [_ He]. cbn in He.
  apply mstep_publishes; [now destruct (nested e)|]. intros u ->. discriminate.
Qed.

(* the split Load (read without statusLock, publish afterwards): an update that has returned is
   missing from the in-memory record although the stored record has it *)
Theorem split_load_refuted :
  let s := mrun split_witness (minit []) in
  m_file s = [1] /\ m_mem s = [] /\ ~ In 1 (m_mem s) /\ In (EUpd 1) split_witness.
Proof. cbn. split; [reflexivity|]. split; [reflexivity|]. split; [tauto|]. right; now left. Qed.

(* the same schedule with the nested Load (one event, before or after the update) loses nothing *)
Example nested_same_schedule :
  m_mem (mrun [ELoad; EUpd 1] (minit [])) = [1] /\ m_mem (mrun [EUpd 1; ELoad] (minit [])) = [1].
Proof. split; reflexivity. Qed.

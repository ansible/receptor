(* Proofs/Mesh.v — shared by the proofs about Model/FloodWorld.v, Model/AdsWorld.v and
   Model/RouteWorld.v: nodes in a list addressed by number, messages in flight in a list, and
   (for the last two) the flooding argument. *)
From Coq Require Import Lia.
From Receptor Require Import Model.FloodWorld.
Open Scope N_scope.

Lemma nth_update_same {A} (l : list A) : forall k v x,
  nth_error l k = Some x -> nth_error (update_nth k v l) k = Some v.
Proof. induction l as [|y r IH]; intros [|k] v x H; simpl in *; try discriminate; eauto. Qed.

Lemma nth_update_other {A} (l : list A) : forall k k' v, k <> k' ->
  nth_error (update_nth k v l) k' = nth_error l k'.
Proof.
  induction l as [|y r IH]; intros [|k] [|k'] v H; simpl; try reflexivity; try congruence.
  apply IH. congruence.
Qed.

Lemma nth_update_node {A} (l : list A) (v i : N) a x : nth_error l (N.to_nat v) = Some x ->
  nth_error (update_nth (N.to_nat v) a l) (N.to_nat i) = if i =? v then Some a else nth_error l (N.to_nat i).
Proof.
  intro Hv. destruct (N.eqb_spec i v) as [->|Hne].
  - eapply nth_update_same, Hv.
  - apply nth_update_other. lia.
Qed.

Lemma remove_nth_len {A} (l : list A) : forall k x,
  nth_error l k = Some x -> (length (remove_nth k l) + 1 = length l)%nat.
Proof.
  induction l as [|y r IH]; intros [|k] x H; simpl in *; try discriminate; [lia|].
  specialize (IH k x H). lia.
Qed.

Lemma remove_nth_In {A} (l : list A) : forall k y, In y (remove_nth k l) -> In y l.
Proof.
  induction l as [|z r IH]; intros [|k] y H; simpl in *; auto.
  destruct H as [H|H]; auto. right. eapply IH. exact H.
Qed.

Lemma in_remove_nth {A} (l : list A) : forall k m x,
  nth_error l k = Some m -> In x l -> x = m \/ In x (remove_nth k l).
Proof.
  induction l as [|y r IH]; intros [|k] m x Hk Hin; simpl in *; try discriminate.
  - inversion Hk; subst. destruct Hin; auto.
  - destruct Hin as [->|Hin]; [right; now left|].
    destruct (IH k m x Hk Hin); auto.
Qed.

(* [has i]: node i has the news; [good m]: message m carries it; [edge v c]: c is a connection
   of v. *)
Section Flooding.
Variables (msg : Type) (from to : msg -> N).
Variables (edge : N -> N -> Prop) (good : msg -> Prop).

(* whoever has the news has told each neighbour, unless the neighbour has it already *)
Definition passed_on (has : N -> Prop) (flight : list msg) : Prop :=
  forall v c, edge v c -> has v ->
    has c \/ exists m, In m flight /\ from m = v /\ to m = c /\ good m.

(* Delivering the k-th message m, the receiver putting [new] in flight.  The last premise is
   flooding itself: a receiver that learns the news sends it on to every neighbour but the
   sender. *)
Lemma passed_on_deliver (has has' : N -> Prop) flight k m new :
  nth_error flight k = Some m ->
  (forall i, has i \/ ~ has i) ->
  (forall i, has i -> has' i) ->
  (forall i, i <> to m -> has' i -> has i) ->
  (good m -> has (from m) /\ has' (to m)) ->
  (~ has (to m) -> has' (to m) ->
   good m /\ forall c, edge (to m) c -> c <> from m ->
               exists m', In m' new /\ from m' = to m /\ to m' = c /\ good m') ->
  passed_on has flight -> passed_on has' (remove_nth k flight ++ new).
Proof.
  intros Em Hdec Hmono Hother Hgood Hlearn J v c E Hv'.
  destruct (Hdec v) as [Hv|Hnv].
  - (* v knew before: its old witness persists, or was the message just delivered *)
    destruct (J v c E Hv) as [Hc|(m0 & Hin & Hf & Ht & Hg)]; [left; auto|].
    destruct (in_remove_nth _ _ _ _ Em Hin) as [->|Hin'].
    + left. rewrite <- Ht. now apply Hgood.
    + right. exists m0. split; [apply in_or_app; now left|auto].
  - (* v has just learned: it is the receiver *)
    assert (v = to m) by (destruct (N.eq_dec v (to m)); [assumption|exfalso; eauto]). subst v.
    destruct (Hlearn Hnv Hv') as [Hg Hrelay].
    destruct (N.eq_dec c (from m)) as [->|Hcx]; [left; now apply Hmono, Hgood|].
    destruct (Hrelay c E Hcx) as (m' & Hin & H). right. exists m'. split; [apply in_or_app; now right|exact H].
Qed.

Lemma passed_on_more (has : N -> Prop) flight flight' :
  (forall m, In m flight -> In m flight') -> passed_on has flight -> passed_on has flight'.
Proof.
  intros Hsub J v c E Hv. destruct (J v c E Hv) as [H|(m & Hin & H)]; [now left|right; eauto].
Qed.

(* o alone has the news and has just sent it to each of its neighbours *)
Lemma passed_on_start (has : N -> Prop) flight o :
  (forall v, has v -> v = o) ->
  (forall c, edge o c -> exists m, In m flight /\ from m = o /\ to m = c /\ good m) ->
  passed_on has flight.
Proof. intros Honly Hsent v c E Hv. apply Honly in Hv as ->. right. now apply Hsent. Qed.

Lemma passed_on_quiet has v c : passed_on has [] -> edge v c -> has v -> has c.
Proof. intros J E Hv. destruct (J v c E Hv) as [Hc|(m & [] & _)]. exact Hc. Qed.
End Flooding.

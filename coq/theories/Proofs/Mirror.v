(* Proofs/Mirror.v — the mirror of Model/Mirror.v (property C05).  Two invariants kept by every
   transition (the local copy begins the remote output and an open stream stands at its end;
   under the remote producer's contract a complete local record is final); convergence by
   computing the state in which [settle] leaves the mirror. *)
From Coq Require Import Lia.
From Receptor Require Import Base.ListFacts Model.Mirror Proofs.Results.
Open Scope N_scope.

Lemma msync_idle s : m_mode s = MIdle ->
  mstep s MSync = mkM (m_remote s) (w_state (m_remote s)) (w_size (m_remote s)) (m_local s) MIdle.
Proof. intro H. simpl. now rewrite H. Qed.

Lemma mloop_idle s : m_mode s = MIdle ->
  mstep s MLoop =
  if is_complete (m_lstate s) && (m_lsize s <=? rlen (m_local s))
  then mkM (m_remote s) (m_lstate s) (m_lsize s) (m_local s) MStopped
  else if rlen (m_local s) <? m_lsize s
       then mkM (m_remote s) (m_lstate s) (m_lsize s) (m_local s) (MStream (rlen (m_local s)) RWait)
       else s.
Proof. intro H. simpl. now rewrite H. Qed.

Lemma mpoll_stream s start ph n : m_mode s = MStream start ph ->
  mstep s (MPoll n) =
  let '(ph', c) := reader_step results_done start (m_remote s) ph n in
  mkM (m_remote s) (m_lstate s) (m_lsize s) (m_local s ++ c)
      (match ph' with RDone => MIdle | _ => MStream start ph' end).
Proof. intro H. simpl. now rewrite H. Qed.

(* the transitions of the mirror, one constructor each, with as much of their guards as the
   invariants need ([T_stay] stands for every step that changes nothing, [T_ask] keeps no guard):
   [mstep s e] is always one of them *)
Inductive mtrans (s : mstate) : mev -> mstate -> Prop :=
| T_env ev :
    mtrans s (MEnv ev) (mkM (env_step (m_remote s) ev) (m_lstate s) (m_lsize s) (m_local s) (m_mode s))
| T_stay e : (forall ev, e <> MEnv ev) -> mtrans s e s
| T_sync m : m_mode s = m -> m <> MStopped ->
    mtrans s MSync (mkM (m_remote s) (w_state (m_remote s)) (w_size (m_remote s)) (m_local s) m)
| T_stop : m_mode s = MIdle -> is_complete (m_lstate s) = true -> m_lsize s <= rlen (m_local s) ->
    mtrans s MLoop (mkM (m_remote s) (m_lstate s) (m_lsize s) (m_local s) MStopped)
| T_ask : m_mode s = MIdle ->
    mtrans s MLoop (mkM (m_remote s) (m_lstate s) (m_lsize s) (m_local s) (MStream (rlen (m_local s)) RWait))
| T_poll n start ph ph' c : m_mode s = MStream start ph ->
    reader_step results_done start (m_remote s) ph n = (ph', c) ->
    mtrans s (MPoll n) (mkM (m_remote s) (m_lstate s) (m_lsize s) (m_local s ++ c)
                            (match ph' with RDone => MIdle | _ => MStream start ph' end))
| T_break start ph : m_mode s = MStream start ph ->
    mtrans s MBreak (mkM (m_remote s) (m_lstate s) (m_lsize s) (m_local s) MIdle).

Lemma mstep_trans s e : mtrans s e (mstep s e).
Proof.
  assert (Hstay : forall e, (forall ev, e <> MEnv ev) -> mtrans s e s) by apply T_stay.
  destruct e as [ev| | |n|]; simpl; [apply T_env|..]; destruct (m_mode s) as [|start ph|] eqn:Em;
    try (apply Hstay; discriminate).
  - now apply T_sync.
  - now apply T_sync.
  - destruct (is_complete (m_lstate s) && (m_lsize s <=? rlen (m_local s))) eqn:E.
    + apply andb_true_iff in E as [E1 E2]. apply N.leb_le in E2. now apply T_stop.
    + destruct (rlen (m_local s) <? m_lsize s); [now apply T_ask|apply Hstay; discriminate].
  - destruct (reader_step results_done start (m_remote s) ph n) as [ph' c] eqn:Er. now apply T_poll with (ph := ph).
  - now apply T_break with (start := start) (ph := ph).
Qed.

Lemma mstep_remote s e :
  m_remote (mstep s e) = match e with MEnv ev => env_step (m_remote s) ev | _ => m_remote s end.
Proof.
  destruct (mstep_trans s e) as [|e Hn| | | | |]; try reflexivity. destruct e; try reflexivity. now destruct (Hn e).
Qed.

Lemma mstep_local s e : exists x, m_local (mstep s e) = m_local s ++ x.
Proof.
  destruct (mstep_trans s e); cbn; try (exists []; now rewrite app_nil_r). now exists c.
Qed.

Lemma stopped_stays s e : m_mode s = MStopped ->
  m_mode (mstep s e) = MStopped /\ m_local (mstep s e) = m_local s.
Proof. intro H. destruct (mstep_trans s e); cbn; auto; congruence. Qed.

Lemma mrun_local_grows tr s : exists x, m_local (mrun_from s tr) = m_local s ++ x.
Proof.
  apply (fold_left_invariant mstep (fun s' => exists x, m_local s' = m_local s ++ x)).
  - intros e s' _ [x Hx]. destruct (mstep_local s' e) as [y Hy]. exists (x ++ y). now rewrite Hy, Hx, app_assoc.
  - exists []. now rewrite app_nil_r.
Qed.

Lemma mrun_stopped_stays tr s : m_mode s = MStopped ->
  m_mode (mrun_from s tr) = MStopped /\ m_local (mrun_from s tr) = m_local s.
Proof.
  intro H. apply (fold_left_invariant mstep (fun s' => m_mode s' = MStopped /\ m_local s' = m_local s)).
  - intros e s' _ [Hm Hl]. destruct (stopped_stays s' e Hm) as [Hm' Hl']. now rewrite Hl'.
  - now split.
Qed.

Lemma mrun_from_app s t1 t2 : mrun_from s (t1 ++ t2) = mrun_from (mrun_from s t1) t2.
Proof. apply fold_left_app. Qed.

Lemma mrun_from_cons s e t : mrun_from s (e :: t) = mrun_from (mstep s e) t.
Proof. reflexivity. Qed.

(* the local stdout is the beginning of the remote stdout, and an open stream stands exactly at
   the end of the local stdout *)
Definition minv (s : mstate) : Prop :=
  (exists rest, m_remote_out s = m_local s ++ rest) /\
  (forall start ph, m_mode s = MStream start ph -> rpos start ph = Some (rlen (m_local s))).

Lemma minv_step s e : minv s -> minv (mstep s e).
Proof.
  unfold minv, m_remote_out. intros [[rest Hp] Hm].
  destruct (mstep_trans s e) as [ev|e _|m <- _| | |n start ph ph' c Em Er|]; cbn;
    try (split; [now exists rest|]); try exact Hm; try discriminate.
  - (* the remote output grows *)
    split; [|exact Hm]. rewrite env_step_output, Hp, <- app_assoc. now eexists.
  - (* a new stream starts at the end of the local output *)
    intros start ph E. now inversion E.
  - (* the stream sends what follows the local output *)
    pose proof (reader_step_sends results_done start (m_remote s) ph n _ (Hm start ph Em)) as Hs.
    rewrite Er in Hs. destruct Hs as [[rest' Hc] Hpos].
    pose proof (skipn_past 0 _ _ rest Hp) as Hk. cbn [N.add] in Hk. rewrite Hk in Hc. subst rest.
    split; [exists rest'; now rewrite Hp, app_assoc|].
    intros start' ph'' E. rewrite rlen_app.
    destruct ph'; inversion E; subst; apply Hpos; discriminate.
Qed.

Lemma minv0 : minv mstate0.
Proof. split; [now exists []|discriminate]. Qed.

Lemma mrun_minv tr s : minv s -> minv (mrun_from s tr).
Proof. apply fold_left_invariant. intros e s' _. apply minv_step. Qed.

Theorem mirror_prefix_thm : forall tr,
  is_prefix (m_local (mrun tr)) (m_remote_out (mrun tr)) = true.
Proof. intro tr. apply is_prefix_spec. exact (proj1 (mrun_minv tr mstate0 minv0)). Qed.

(* with the remote producer's contract: a complete local record is a copy of a final remote
   one, and the stdout monitor stops only on such a record whose size the local output has reached *)
Definition minv_contract (s : mstate) : Prop :=
  winv results_done (m_remote s) /\
  (is_complete (m_lstate s) = true ->
   results_done (w_state (m_remote s)) = true /\ m_lsize s = rlen (m_remote_out s)) /\
  (m_mode s = MStopped -> is_complete (m_lstate s) = true /\ m_lsize s <= rlen (m_local s)).

Lemma is_complete_done st : is_complete st = true -> results_done st = true.
Proof. unfold results_done. intros ->. reflexivity. Qed.

Lemma minv2_step s e :
  match e with MEnv ev => cstep results_done (m_remote s) ev = true | _ => True end ->
  minv_contract s -> minv_contract (mstep s e).
Proof.
  unfold minv_contract, m_remote_out. intros Hc (Hw & Hl & Hs).
  destruct (mstep_trans s e) as [ev|e _|m <- Hns|Em Hcomp Hle| |n start ph ph' c Em Er|]; cbn;
    (split; [|split]); try exact Hw; try exact Hl; try exact Hs; try discriminate.
  - now apply winv_env.
  - (* a complete local record is a copy of a finishing status, after which the remote output is frozen *)
    intro Hcomp. destruct (Hl Hcomp) as [Hd ->].
    destruct (cstep_frozen results_done _ _ ev Hc (conj eq_refl Hd)) as [-> Hd']. now split.
  - (* the copied status is the remote one *)
    intro Hcomp. apply is_complete_done in Hcomp. auto.
  - (* and is not copied once stopped *)
    intro Hm. contradiction.
  - (* the loop stops on a complete record whose size is reached *)
    now split.
  - (* a stream never stops the loop *)
    now destruct ph'.
Qed.

Lemma minv2_0 : minv_contract mstate0.
Proof. split; [now apply winv0|]. split; discriminate. Qed.

Lemma mrun_minv2 tr : forall s,
  contract_from results_done (m_remote s) (menv tr) = true -> minv_contract s -> minv_contract (mrun_from s tr).
Proof.
  induction tr as [|e r IH]; intros s Hc H; [exact H|]. apply (IH (mstep s e)).
  - rewrite mstep_remote. destruct e; simpl in Hc; try exact Hc. now apply andb_true_iff in Hc as [_ Hc].
  - apply minv2_step; [|exact H]. destruct e; try exact I. simpl in Hc. now apply andb_true_iff in Hc as [Hc _].
Qed.

Lemma mrun_invs tr : contract (menv tr) = true -> minv (mrun tr) /\ minv_contract (mrun tr).
Proof.
  intro Hc. split; [exact (mrun_minv tr mstate0 minv0)|exact (mrun_minv2 tr mstate0 Hc minv2_0)].
Qed.

(* whenever the stdout monitor has returned, the local output is the complete remote output *)
Lemma stopped_equal s : minv s -> minv_contract s -> m_mode s = MStopped ->
  m_local s = m_remote_out s /\ results_done (w_state (m_remote s)) = true.
Proof.
  intros [[rest Hp] _] (_ & Hl & Hs) Hm. destruct (Hs Hm) as [Hc Hle]. destruct (Hl Hc) as [Hd Hsz].
  split; [|exact Hd]. rewrite (sent_all 0 _ _ rest Hp) in Hp by lia. now rewrite app_nil_r in Hp.
Qed.

Lemma repeat_map_poll k : repeat (MPoll 65536) k = map MPoll (repeat 65536%N k).
Proof. induction k; simpl; congruence. Qed.

Lemma polls_noop polls : forall s,
  (forall start ph, m_mode s <> MStream start ph) -> mrun_from s (map MPoll polls) = s.
Proof.
  induction polls as [|n r IH]; intros s H; [reflexivity|].
  assert (E : mstep s (MPoll n) = s).
  { simpl. destruct (m_mode s) eqn:Em; try reflexivity. exfalso. now apply (H start ph). }
  cbn [map]. rewrite mrun_from_cons, E. now apply IH.
Qed.

(* an open stream on a done remote unit whose record carries the size of its output, given
   [measure] polls: the state it leaves, every field *)
Lemma stream_runs_out : forall polls s start ph,
  m_mode s = MStream start ph -> minv s ->
  results_done (w_state (m_remote s)) = true -> w_size (m_remote s) = rlen (m_remote_out s) ->
  (measure (m_remote s) ph <= length polls)%nat ->
  mrun_from s (map MPoll polls) = mkM (m_remote s) (m_lstate s) (m_lsize s) (m_remote_out s) MIdle.
Proof.
  induction polls as [|n r IH]; intros s start ph Hm Hi Hd Hsz Hl; pose proof Hi as [[rest Hp] Hpos].
  - (* a stream is open: its measure is not 0 *)
    assert (ph = RDone) as -> by (apply (measure_0 (m_remote s)); simpl in Hl; lia).
    discriminate (Hpos _ _ Hm).
  - pose proof (minv_step s (MPoll n) Hi) as Hi1.
    cbn [map]. rewrite mrun_from_cons. rewrite (mpoll_stream s start ph n Hm) in *.
    pose proof (poll_decreases results_done start (m_remote s) ph n Hd) as Hdec.
    pose proof (finish_position results_done start (m_remote s) ph n) as Hfin.
    destruct (reader_step results_done start (m_remote s) ph n) as [ph' c]. simpl in Hdec, Hfin.
    assert (Hph : ph' = RDone \/ ph' <> RDone) by (destruct ph'; auto; right; discriminate).
    destruct Hph as [->|Hne].
    + (* the stream ends: at a position that the size of the output does not exceed *)
      rewrite polls_noop by discriminate.
      destruct (Hfin (winv_winv_m _ _ (fun _ => Hsz)) eq_refl) as [-> [->|(_ & p & Hp' & Hle)]];
        [discriminate (Hpos _ _ Hm)|].
      rewrite (Hpos _ _ Hm) in Hp'. inversion Hp'. subst p.
      rewrite (sent_all 0 _ _ rest Hp) in Hp by (unfold m_remote_out in *; lia).
      rewrite !app_nil_r in *. now rewrite Hp.
    + assert (Em : match ph' with RDone => MIdle | _ => MStream start ph' end = MStream start ph')
        by now destruct ph'.
      rewrite Em in *. rewrite IH with (start := start) (ph := ph'); try assumption; try reflexivity.
      specialize (Hdec ltac:(rewrite Hsz; apply N.le_refl)). simpl in *. lia.
Qed.

Lemma mloop_equal R st out :
  mstep (mkM R st (rlen out) out MIdle) MLoop =
  mkM R st (rlen out) out (if is_complete st then MStopped else MIdle).
Proof. simpl. rewrite N.leb_refl, N.ltb_irrefl, andb_true_r. now destruct (is_complete st). Qed.

(* the same for an idle mirror and the schedule: copy the status, look, polls, look *)
Lemma fetch_converges s k :
  m_mode s = MIdle -> minv s ->
  results_done (w_state (m_remote s)) = true -> w_size (m_remote s) = rlen (m_remote_out s) ->
  (length (m_remote_out s) + 4 <= k)%nat ->
  mrun_from s ([MSync; MLoop] ++ repeat (MPoll 65536) k ++ [MLoop]) =
  mkM (m_remote s) (w_state (m_remote s)) (rlen (m_remote_out s)) (m_remote_out s)
      (if is_complete (w_state (m_remote s)) then MStopped else MIdle).
Proof.
  intros Hm [[rest Hp] _] Hd Hsz Hk. rewrite repeat_map_poll.
  cbn [app]. rewrite !mrun_from_cons, (msync_idle s Hm), Hsz, mrun_from_app.
  destruct (N.lt_ge_cases (rlen (m_local s)) (rlen (m_remote_out s))) as [E|E].
  - (* something is missing: ask for it *)
    rewrite mloop_idle by reflexivity. cbn [m_lstate m_lsize m_local m_remote].
    rewrite (proj2 (N.leb_gt _ _) E), andb_false_r, (proj2 (N.ltb_lt _ _) E).
    rewrite stream_runs_out with (start := rlen (m_local s)) (ph := RWait);
      try assumption; try reflexivity.
    + apply mloop_equal.
    + split; [now exists rest|]. intros start ph Es. now inversion Es.
    + rewrite repeat_length. pose proof (measure_bound (m_remote s) RWait). unfold m_remote_out in Hk.
      cbn [m_remote]. lia.
  - (* nothing is missing: nothing moves but the mode *)
    rewrite (sent_all 0 _ _ rest Hp) in Hp by lia. rewrite app_nil_r in Hp. rewrite <- Hp.
    rewrite mloop_equal, polls_noop by (cbn [m_mode]; now destruct (is_complete _)).
    destruct (is_complete (w_state (m_remote s))) eqn:Ec; [reflexivity|].
    cbn [mrun_from fold_left]. now rewrite mloop_equal, Ec.
Qed.

(* [settle] has no remote event, and nothing else moves a stopped mirror *)
Lemma stopped_settle s k : m_mode s = MStopped -> mrun_from s (settle k) = s.
Proof.
  intro Hm.
  assert (Hp : mrun_from s (map MPoll (repeat 65536 k)) = s) by (apply polls_noop; now rewrite Hm).
  assert (Hs : mrun_from s [MSync; MLoop] = s) by (simpl; rewrite Hm; simpl; now rewrite Hm).
  assert (Hl : mrun_from s [MLoop] = s) by (simpl; now rewrite Hm).
  unfold settle. now rewrite repeat_map_poll, !mrun_from_app, Hp, Hs, Hp, Hl.
Qed.

(* the state in which [settle] leaves the mirror of a done remote unit, in closed form *)
Lemma settle_result s k :
  minv s -> results_done (w_state (m_remote s)) = true ->
  w_size (m_remote s) = rlen (m_remote_out s) -> (length (m_remote_out s) + 4 <= k)%nat ->
  mrun_from s (settle k) =
  if is_stopped (m_mode s) then s
  else mkM (m_remote s) (w_state (m_remote s)) (rlen (m_remote_out s)) (m_remote_out s)
           (if is_complete (w_state (m_remote s)) then MStopped else MIdle).
Proof.
  intros Hi Hd Hsz Hk. destruct (m_mode s) as [|start ph|] eqn:Em; cbn [is_stopped];
    [| |exact (stopped_settle s k Em)]; unfold settle; rewrite mrun_from_app, repeat_map_poll at 1.
  - rewrite polls_noop by (rewrite Em; discriminate). now apply fetch_converges.
  - assert (Hmeas : (measure (m_remote s) ph <= length (repeat 65536%N k))%nat).
    { rewrite repeat_length. pose proof (measure_bound (m_remote s) ph). unfold m_remote_out in Hk. lia. }
    pose proof (mrun_minv (map MPoll (repeat 65536 k)) s Hi) as Hi1.
    rewrite (stream_runs_out _ s start ph Em Hi Hd Hsz Hmeas) in *. now rewrite fetch_converges.
Qed.

(* ... and what that says, from any state that has the two invariants *)
Lemma settle_converges s k :
  minv s -> minv_contract s -> results_done (w_state (m_remote s)) = true ->
  (length (m_remote_out s) + 4 <= k)%nat ->
  let s' := mrun_from s (settle k) in
  m_local s' = m_remote_out s' /\ m_remote s' = m_remote s /\
  (forall start ph, m_mode s' <> MStream start ph) /\
  (is_complete (w_state (m_remote s)) = true -> m_mode s' = MStopped).
Proof.
  intros Hi Hi2 Hd Hk. pose proof Hi2 as (Hw & _). cbv zeta.
  rewrite (settle_result s k Hi Hd (Hw Hd) Hk). destruct (m_mode s) eqn:Em; cbn.
  1-2: repeat split; [now destruct (is_complete _)|now intros ->].
  destruct (stopped_equal s Hi Hi2 Em) as [He _]. rewrite Em. now repeat split.
Qed.

Theorem mirror_converges_done_thm : forall tr k,
  contract (menv tr) = true ->
  results_done (w_state (m_remote (mrun tr))) = true ->
  (length (m_remote_out (mrun tr)) + 4 <= k)%nat ->
  let s' := mrun_from (mrun tr) (settle k) in
  m_local s' = m_remote_out s' /\ m_remote_out s' = m_remote_out (mrun tr) /\
  (forall start ph, m_mode s' <> MStream start ph) /\
  (is_complete (w_state (m_remote (mrun tr))) = true -> m_mode s' = MStopped).
Proof.
  intros tr k Hc Hd Hk. destruct (mrun_invs tr Hc) as [Hi Hi2].
  destruct (settle_converges (mrun tr) k Hi Hi2 Hd Hk) as (A & B & C).
  split; [exact A|]. split; [unfold m_remote_out; now rewrite B|exact C].
Qed.

Theorem mirror_converges_thm : forall tr k,
  contract (menv tr) = true ->
  is_complete (w_state (m_remote (mrun tr))) = true ->
  (length (m_remote_out (mrun tr)) + 4 <= k)%nat ->
  let s' := mrun_from (mrun tr) (settle k) in
  m_mode s' = MStopped /\ m_local s' = m_remote_out s' /\ m_remote_out s' = m_remote_out (mrun tr).
Proof.
  intros tr k Hc Hcomp Hk.
  destruct (mirror_converges_done_thm tr k Hc (is_complete_done _ Hcomp) Hk) as (A & B & _ & D).
  exact (conj (D Hcomp) (conj A B)).
Qed.

(* non-vacuity: a transfer that is cut twice *)
Definition mirror_example : list mev :=
  [MEnv ECreate; MEnv (EAppend [1; 2; 3; 4]); MEnv (ESetStatus ST_RUNNING 4); MSync; MLoop;
   MPoll 1; MPoll 2; MBreak; MLoop; MPoll 65536; MPoll 1; MEnv (EAppend [5; 6]); MPoll 1; MPoll 1; MBreak;
   MEnv (ESetStatus ST_SUCCEEDED 6)].

Lemma split_nl_some c a rest : split_nl c = Some (a, rest) -> c = a ++ 10 :: rest /\ no_nl a = true.
Proof.
  revert a rest; induction c as [|b r IH]; intros a rest H; simpl in H; [discriminate|].
  destruct (b =? 10) eqn:E.
  - inversion H; subst. apply N.eqb_eq in E. subst b. now split.
  - destruct (split_nl r) as [[a' rest']|] eqn:Es; [|discriminate]. inversion H; subst.
    destruct (IH a' rest eq_refl) as [-> Hn]. split; [reflexivity|]. simpl. now rewrite E.
Qed.

Lemma split_nl_none c : split_nl c = None -> no_nl c = true.
Proof.
  induction c as [|b r IH]; intro H; [reflexivity|]. simpl in H. simpl.
  destruct (b =? 10); [discriminate|]. destruct (split_nl r) as [[a rest]|]; [discriminate|].
  now rewrite IH.
Qed.

Lemma no_nl_app a b : no_nl (a ++ b) = no_nl a && no_nl b.
Proof. unfold no_nl. apply forallb_app. Qed.

Lemma nl_free_prefix c : forall h x y,
  no_nl c = true -> no_nl h = true -> c ++ x = h ++ 10 :: y ->
  exists h', h = c ++ h' /\ x = h' ++ 10 :: y.
Proof.
  induction c as [|k c IH]; intros h x y Hc Hh H; simpl in *.
  - exists h. now split.
  - destruct h as [|j h]; simpl in H.
    + inversion H; subst k. discriminate.
    + inversion H; subst j. apply andb_true_iff in Hc as [_ Hc]. simpl in Hh.
      apply andb_true_iff in Hh as [_ Hh].
      destruct (IH h x y Hc Hh H2) as [h' [-> ->]]. now exists h'.
Qed.

Lemma first_nl_unique a b x y :
  no_nl a = true -> no_nl b = true -> a ++ 10 :: x = b ++ 10 :: y -> a = b /\ x = y.
Proof.
  intros Ha Hb H. destruct (nl_free_prefix a b _ _ Ha Hb H) as [h' [-> Hx]].
  rewrite no_nl_app in Hb. apply andb_true_iff in Hb as [_ Hb].
  destruct h' as [|j h']; inversion Hx; subst; [now rewrite app_nil_r|discriminate Hb].
Qed.

Lemma read_line_spec reads : forall acc hdr body,
  no_nl hdr = true -> concat reads = hdr ++ 10 :: body ->
  exists buffered r, read_line acc reads = Some (acc ++ hdr ++ [10], buffered, r) /\
                     buffered ++ concat r = body.
Proof.
  induction reads as [|c r IH]; intros acc hdr body Hh Hc; simpl in Hc.
  - destruct hdr; discriminate.
  - simpl. destruct (split_nl c) as [[a rest]|] eqn:Es.
    + destruct (split_nl_some _ _ _ Es) as [-> Ha]. rewrite <- app_assoc in Hc. simpl in Hc.
      destruct (first_nl_unique a hdr _ _ Ha Hh Hc) as [-> Hb].
      exists rest, r. split; [reflexivity|exact Hb].
    + pose proof (split_nl_none _ Es) as Hn.
      destruct (nl_free_prefix c hdr _ _ Hn Hh Hc) as [h' [-> Hx]].
      rewrite no_nl_app in Hh. apply andb_true_iff in Hh as [_ Hh'].
      destruct (IH (acc ++ c) h' body Hh' Hx) as [bf [r' [E B]]].
      exists bf, r'. split; [|exact B]. rewrite E. now rewrite <- !app_assoc.
Qed.


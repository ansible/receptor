(* Proofs/PJson.v — the encoding/json model of Model/PJson.v: integer ranges, kinds, when the
   embedded pointer is allocated, worked examples. *)
From Coq Require Import String.
From Receptor Require Import Model.PJson.
Open Scope N_scope.

Lemma jbind_ok {A B} (r : jres A) (f : A -> jres B) b :
  jbind r f = JOk b -> exists a, r = JOk a /\ f a = JOk b.
Proof. destruct r as [a|]; [eauto|discriminate]. Qed.

Lemma round53_exact n : N.size n <= 53 -> round53 n = n.
Proof. intro H. unfold round53. apply N.leb_le in H. now rewrite H. Qed.

Lemma num_uint_ok b x n : num_uint b x = JOk n -> x = NInt false n /\ n < b.
Proof.
  destruct x as [[|] m| |]; simpl; try discriminate.
  destruct (m <? b) eqn:E; [|discriminate]. intros [= <-]. now apply N.ltb_lt in E.
Qed.

(* a negative, fractional or exponent literal never becomes an unsigned integer *)
Lemma num_uint_integer_literal b x n : num_uint b x = JOk n -> x = NInt false n.
Proof. apply num_uint_ok. Qed.

Lemma dec_uint_bound b cur v n : cur < b -> dec_uint b cur v = JOk n -> n < b.
Proof.
  intros Hc. destruct v; simpl; try discriminate.
  - now intros [= <-].
  - apply num_uint_ok.
Qed.

Lemma dy_eqb_refl d : dy_eqb d d = true.
Proof.
  unfold dy_eqb. rewrite eqb_reflx, !N.eqb_refl. reflexivity.
Qed.

Lemma dec_str_null cur : dec_str cur JNull = JOk cur.
Proof. reflexivity. Qed.

Lemma dec_str_mismatch cur v :
  (forall s t, v <> JStr s t) -> v <> JNull -> dec_str cur v = JErr.
Proof. destruct v; simpl; intros H1 H2; try reflexivity; [contradiction|exfalso; eapply H1; reflexivity]. Qed.

Lemma dec_uint_mismatch b cur v :
  (forall x, v <> JNum x) -> v <> JNull -> dec_uint b cur v = JErr.
Proof. destruct v; simpl; intros H1 H2; try reflexivity; [contradiction|exfalso; eapply H1; reflexivity]. Qed.

Lemma decode_ru_toplevel j :
  match j with
  | JNull => decode_routing_update j = JOk ru_zero
  | JObj ms => decode_routing_update j = ru_members ms ru_zero
  | _ => decode_routing_update j = JErr
  end.
Proof. destruct j; reflexivity. Qed.

Definition ru_bounded (r : rupd) : Prop := ru_epoch r < two64 /\ ru_seq r < two64 /\ ru_dup r < two64.

Lemma ru_set_bounded r i x r' : ru_bounded r -> ru_set r i x = JOk r' -> ru_bounded r'.
Proof.
  intros (He & Hs & Hd) H.
  destruct i as [|[|[|[|[|[|i]]]]]]; apply jbind_ok in H as (v & E & [= <-]);
    repeat split; cbn [ru_epoch ru_seq ru_dup]; try assumption;
    (eapply dec_uint_bound; [|exact E]; assumption).
Qed.

Lemma ru_members_bounded ms : forall r r', ru_bounded r -> ru_members ms r = JOk r' -> ru_bounded r'.
Proof.
  induction ms as [|[k x] ms IH]; intros r r' Hb H; cbn [ru_members] in H.
  - now injection H as <-.
  - destruct (field_index ru_names k 0) as [i|]; [|eapply IH; eassumption].
    apply jbind_ok in H as (r1 & E & H). eapply IH; [|exact H]. eapply ru_set_bounded; eassumption.
Qed.

Lemma decode_ru_bounded j r : decode_routing_update j = JOk r -> ru_bounded r.
Proof.
  assert (Z : ru_bounded ru_zero) by now repeat split.
  destruct j; simpl; try discriminate.
  - now intros [= <-].
  - now apply ru_members_bounded.
Qed.

Definition names_embedded (k : bytes) : bool :=
  match field_index ad_names k 0 with
  | Some i => Nat.ltb i 6
  | None => false
  end.

Lemma ad_set_present a i x a' : ad_set a i x = JOk a' ->
  ad_present a' = ad_present a || Nat.ltb i 6.
Proof.
  intro H. destruct i as [|[|[|[|[|[|i]]]]]]; apply jbind_ok in H as (v & _ & [= <-]);
    cbn; now destruct (ad_present a).
Qed.

Lemma ad_members_present ms : forall a a', ad_members ms a = JOk a' ->
  ad_present a' = ad_present a || existsb (fun kv => names_embedded (fst kv)) ms.
Proof.
  induction ms as [|[k x] ms IH]; intros a a' H; cbn [ad_members] in H.
  - injection H as <-. now rewrite orb_false_r.
  - cbn [existsb fst]. unfold names_embedded at 1.
    destruct (field_index ad_names k 0) as [i|]; [|now apply IH].
    apply jbind_ok in H as (a1 & E & H). apply IH in H. apply ad_set_present in E.
    now rewrite H, E, orb_assoc.
Qed.

Lemma decode_advert_present j a : decode_advert j = JOk a ->
  ad_present a = match j with
                 | JObj ms => existsb (fun kv => names_embedded (fst kv)) ms
                 | _ => false
                 end.
Proof.
  destruct j; simpl; try discriminate.
  - now intros [= <-].
  - apply ad_members_present.
Qed.

Example ex_case_insensitive :
  decode_routing_update (JObj [(str "forwardingnode"%string, JStr (str "a"%string) None);
                               (str "NODEID"%string, JStr (str "b"%string) None)])
  = JOk {| ru_node := str "b"%string; ru_uid := []; ru_epoch := 0; ru_seq := 0; ru_conns := None;
           ru_fwd := str "a"%string; ru_dup := 0 |}.
Proof. reflexivity. Qed.

(* U+017F LATIN SMALL LETTER LONG S folds to 's': "Connectionſ" names the Connections field *)
Example ex_long_s :
  field_index ru_names (str "Connection"%string ++ [197; 191]) 0 = Some 4%nat.
Proof. reflexivity. Qed.

Example ex_null_map_value :
  decode_routing_update (JObj [(str "Connections"%string, JObj [(str "a"%string, JNull)])])
  = JOk {| ru_node := []; ru_uid := []; ru_epoch := 0; ru_seq := 0;
           ru_conns := Some [(str "a"%string, zero_dy)]; ru_fwd := []; ru_dup := 0 |}.
Proof. reflexivity. Qed.

Example ex_uint_fraction_is_error :
  decode_routing_update (JObj [(str "UpdateEpoch"%string, JNum (NFrac (Dy false 1 0)))]) = JErr.
Proof. reflexivity. Qed.

Example ex_uint_overflow_is_error :
  decode_routing_update (JObj [(str "UpdateEpoch"%string, JNum (NInt false two64))]) = JErr.
Proof. reflexivity. Qed.

Example ex_advert_cancel_only_nil :
  decode_advert (JObj [(str "Cancel"%string, JBool true)])
  = JOk {| ad_present := false; ad_node := []; ad_service := []; ad_time := None; ad_conntype := 0;
           ad_tags := None; ad_cmds := None; ad_cancel := true |}.
Proof. reflexivity. Qed.

Example ex_advert_null_field_allocates :
  jbind (decode_advert (JObj [(str "tags"%string, JNull)])) (fun a => JOk (ad_present a)) = JOk true.
Proof. reflexivity. Qed.

(* Proofs/Pattern.v — the output pattern of the C05 case files (Model/Results.v [pat], [pat_cyc]):
   [pat] produces the bytes [pat_byte off .. pat_byte (off+len-1)], the byte function has period
   251 * 256, and therefore the periodic form [pat_cyc], and with it [patc], is the same function as [pat]. *)
From Coq Require Import ZArith Lia.
From Receptor Require Import Base.ListFacts Model.Results.
Open Scope N_scope.

Section Periodic.
Variables (A : Type) (f : nat -> A).

Definition stretch (s n : nat) : list A := map f (seq s n).

Lemma stretch_app s n m : stretch s (n + m) = stretch s n ++ stretch (s + n) m.
Proof. unfold stretch. now rewrite seq_app, map_app. Qed.

Lemma stretch_S s n : stretch s (S n) = stretch s n ++ [f (s + n)].
Proof. unfold stretch. now rewrite seq_S, map_app. Qed.

Lemma stretch_length s n : length (stretch s n) = n.
Proof. unfold stretch. now rewrite map_length, seq_length. Qed.

Lemma firstn_stretch s n m : (n <= m)%nat -> firstn n (stretch s m) = stretch s n.
Proof.
  intro H. replace m with (n + (m - n))%nat by lia.
  rewrite stretch_app. apply firstn_app_exact, stretch_length.
Qed.

Lemma skipn_stretch s n m : (n <= m)%nat -> skipn n (stretch s m) = stretch (s + n) (m - n).
Proof.
  intro H. replace m with (n + (m - n))%nat at 1 by lia.
  rewrite stretch_app. apply skipn_app_exact, stretch_length.
Qed.

Variable p : nat.
Hypothesis f_period : forall k, f (k + p) = f k.

Lemma stretch_shift s n : stretch (s + p) n = stretch s n.
Proof.
  revert s. induction n as [|n IH]; intro s; [reflexivity|].
  unfold stretch in *. cbn [seq map]. rewrite f_period. f_equal. apply (IH (S s)).
Qed.

Lemma stretch_shifts q s n : stretch (q * p + s) n = stretch s n.
Proof.
  induction q as [|q IH]; [reflexivity|].
  rewrite <- IH, <- (stretch_shift (q * p + s)). f_equal. lia.
Qed.

(* [per] is one period: the rest of the period that [s] lies in, whole periods, the beginning of one *)
Variable per : list A.
Hypothesis per_spec : per = stretch 0 p.

Fixpoint periods (k : nat) (tail : list A) : list A :=
  match k with O => tail | S k' => per ++ periods k' tail end.

Lemma periods_stretch k t : periods k (stretch 0 t) = stretch 0 (k * p + t).
Proof.
  induction k as [|k IH]; [reflexivity|].
  cbn [periods]. rewrite IH, per_spec. replace (S k * p + t)%nat with (p + (k * p + t))%nat by lia.
  rewrite (stretch_app 0 p). f_equal. symmetry. apply (stretch_shift 0).
Qed.

Lemma stretch_cyclic s n : (0 < p)%nat ->
  let r := (s mod p)%nat in
  let hl := (p - r)%nat in
  stretch s n =
  if (n <=? hl)%nat then firstn n (skipn r per)
  else skipn r per ++ periods ((n - hl) / p) (firstn ((n - hl) mod p) per).
Proof.
  intros Hp r hl. rewrite per_spec.
  assert (Hr : (r < p)%nat) by (apply Nat.mod_upper_bound; lia).
  rewrite (skipn_stretch 0) by lia. change (0 + r)%nat with r. fold hl.
  rewrite (Nat.div_mod s p) at 1 by lia. rewrite (Nat.mul_comm p), stretch_shifts. fold r.
  destruct (n <=? hl)%nat eqn:E.
  - apply Nat.leb_le in E. now rewrite firstn_stretch.
  - apply Nat.leb_gt in E. set (m := (n - hl)%nat).
    assert (Ht : (m mod p < p)%nat) by (apply Nat.mod_upper_bound; lia).
    rewrite firstn_stretch, periods_stretch, (Nat.mul_comm _ p), <- Nat.div_mod by lia.
    replace n with (hl + m)%nat at 1 by lia. rewrite stretch_app. f_equal.
    replace (r + hl)%nat with (0 + p)%nat by lia. apply stretch_shift.
Qed.
End Periodic.
Arguments stretch {A} f s n.
Arguments periods {A} per k tail.

Definition pat_at (k : nat) : N := pat_byte (N.of_nat k).

Definition pat_state (i : N) (acc : bytes) : N * N * N * bytes :=
  ((7 * i) mod 256, i mod 251, (i / 251) mod 256, acc).

(* how quotient and remainder move from [x] to [x + 1], and a sum of two residues reduced by one
   conditional subtraction: the three pieces of arithmetic in [pat_next] *)
Lemma succ_div_mod x d : 0 < d ->
  N.succ x / d = (if x mod d =? N.pred d then x / d + 1 else x / d) /\
  N.succ x mod d = (if x mod d =? N.pred d then 0 else x mod d + 1).
Proof.
  intro Hd. pose proof (N.div_mod x d) as Hx. pose proof (N.mod_lt x d) as Hr.
  destruct (N.eqb_spec (x mod d) (N.pred d)) as [E|E].
  - assert (H : N.succ x = d * (x / d + 1) + 0) by (rewrite N.mul_add_distr_l, N.mul_1_r; lia).
    split; symmetry; [eapply N.div_unique|eapply N.mod_unique]; try exact H; lia.
  - assert (H : N.succ x = d * (x / d) + (x mod d + 1)) by lia.
    split; symmetry; [eapply N.div_unique|eapply N.mod_unique]; try exact H; lia.
Qed.

Lemma wrap_mod x m : x < 2 * m -> (if x <? m then x else x - m) = x mod m.
Proof.
  intro Hx. destruct (N.ltb_spec x m); [now rewrite N.mod_small|].
  apply (N.mod_unique _ _ 1); lia.
Qed.

Lemma pat_next_state i acc : pat_next (pat_state i acc) = pat_state (N.succ i) (pat_byte i :: acc).
Proof.
  unfold pat_next, pat_state, pat_byte.
  pose proof (N.mod_lt (7 * i) 256) as Ha. pose proof (N.mod_lt (i / 251) 256) as Hq.
  (* the conditional subtractions (byte, next multiple of 7) are reductions mod 256 *)
  rewrite !wrap_mod by lia.
  rewrite <- N.add_mod, N.add_mod_idemp_l, <- N.mul_succ_r by discriminate.
  destruct (succ_div_mod i 251 eq_refl) as [Hd Hm]. rewrite Hd, Hm.
  change (N.pred 251) with 250. destruct (i mod 251 =? 250); [|reflexivity].
  now rewrite (N.add_1_r (i / 251)), (proj2 (succ_div_mod (i / 251) 256 eq_refl)).
Qed.

Lemma pat_iter off n :
  N.iter n pat_next (pat_state off []) =
  pat_state (off + n) (rev (stretch pat_at (N.to_nat off) (N.to_nat n))).
Proof.
  induction n as [|n IH] using N.peano_ind.
  - now rewrite N.add_0_r.
  - rewrite N.iter_succ, IH, pat_next_state, N.add_succ_r, N2Nat.inj_succ.
    rewrite stretch_S, rev_unit. unfold pat_at. now rewrite Nat2N.inj_add, !N2Nat.id.
Qed.

Theorem pat_spec off len : pat off len = stretch pat_at (N.to_nat off) (N.to_nat len).
Proof.
  unfold pat. change (_, _, _, []) with (pat_state off []). rewrite pat_iter.
  unfold pat_state, rev'. now rewrite <- rev_alt, rev_involutive.
Qed.

Lemma pat_byte_period i : pat_byte (i + 64256) = pat_byte i.
Proof.
  unfold pat_byte. change 64256 with (256 * 251). rewrite N.div_add by discriminate.
  replace (7 * (i + 256 * 251) + (i / 251 + 256)) with (7 * i + i / 251 + 1758 * 256) by lia.
  apply N.mod_add. discriminate.
Qed.

Definition pat_period_len : nat := N.to_nat 64256.

Lemma pat_at_period k : pat_at (k + pat_period_len) = pat_at k.
Proof. unfold pat_at, pat_period_len. now rewrite Nat2N.inj_add, N2Nat.id, pat_byte_period. Qed.

Lemma pat_period_spec : pat_period = stretch pat_at 0 pat_period_len.
Proof.
  unfold pat_period, pat_table. rewrite pat_spec. fold pat_period_len.
  apply firstn_stretch. unfold pat_period_len. lia.
Qed.

Lemma cyc_fill_spec k tail : cyc_fill k tail = periods pat_period k tail.
Proof. induction k as [|k IH]; [reflexivity|]. cbn [cyc_fill periods]. apply f_equal, IH. Qed.

(* stated over a variable period, period list and filler: rewriting in a goal that mentions
   [pat_period] itself lets unification unfold it, which evaluates the 256 KiB table, and [lia]
   converts a literal [N.to_nat 64256] in unary *)
Lemma cyclic_form (P : N) (per : bytes) (fill : nat -> bytes -> bytes) off len :
  0 < P -> (forall k, pat_at (k + N.to_nat P) = pat_at k) ->
  per = stretch pat_at 0 (N.to_nat P) -> (forall k t, fill k t = periods per k t) ->
  (let r := off mod P in
   let head := skipn (N.to_nat r) per in
   let hl := P - r in
   if len <=? hl then firstn (N.to_nat len) head
   else head ++ fill (N.to_nat ((len - hl) / P)) (firstn (N.to_nat ((len - hl) mod P)) per))
  = stretch pat_at (N.to_nat off) (N.to_nat len).
Proof.
  intros HP Hat Hper Hfill. cbv zeta. rewrite Hfill.
  rewrite (stretch_cyclic _ _ _ Hat _ Hper) by lia.
  rewrite <- (N2Nat.inj_mod off P). set (r := off mod P).
  assert (Hl : (N.to_nat len <=? N.to_nat P - N.to_nat r)%nat = (len <=? P - r)).
  { destruct (N.leb_spec len (P - r)); [apply Nat.leb_le|apply Nat.leb_gt]; lia. }
  rewrite Hl. destruct (N.leb_spec len (P - r)) as [E|E]; [reflexivity|].
  replace (N.to_nat len - (N.to_nat P - N.to_nat r))%nat with (N.to_nat (len - (P - r))) by lia.
  now rewrite <- N2Nat.inj_div, <- N2Nat.inj_mod.
Qed.

Theorem pat_cyc_spec off len : pat_cyc off len = pat off len.
Proof.
  rewrite pat_spec.
  exact (cyclic_form 64256 _ _ off len eq_refl pat_at_period pat_period_spec cyc_fill_spec).
Qed.

(* [patc], what the case files call: below the end of the table a slice of it, beyond it [pat_cyc] *)
Lemma table_slice (T : N) (tab : bytes) off len :
  tab = stretch pat_at 0 (N.to_nat T) -> off + len <= T ->
  firstn (N.to_nat len) (skipn (N.to_nat off) tab) = stretch pat_at (N.to_nat off) (N.to_nat len).
Proof. intros -> H. now rewrite skipn_stretch, firstn_stretch by lia. Qed.

Theorem patc_spec off len : patc off len = pat off len.
Proof.
  unfold patc. destruct (N.leb_spec (off + len) 262144) as [H|H]; [|apply pat_cyc_spec].
  rewrite pat_spec. apply (table_slice 262144); [|exact H]. unfold pat_table. apply pat_spec.
Qed.

(* Proofs/Proto.v — the receive loop of Model/Proto.v: never Panic (repaired code), the pinned
   code does, what a datagram can and cannot change, when the node shuts down. *)
From Coq Require Import String Lia PeanoNat.
From Receptor Require Import Model.Proto.
Open Scope N_scope.

Lemma beq_bytes_sym a b : beq_bytes a b = beq_bytes b a.
Proof. apply eq_true_iff_eq. rewrite !beq_bytes_eq. split; congruence. Qed.

Lemma isnil_false {A} (l : list A) : isnil l = false <-> l <> [].
Proof. destruct l; cbn; split; congruence. Qed.

Lemma aget_adel_other {V} (m : list (bytes * V)) k k0 :
  beq_bytes k k0 = false -> aget (adel m k0) k = aget m k.
Proof.
  intro H. induction m as [|[k' v] m IH]; simpl; [reflexivity|].
  destruct (beq_bytes k0 k') eqn:E0.
  - apply beq_bytes_eq in E0 as <-. now rewrite H.
  - simpl. now rewrite IH.
Qed.

Lemma aget_adel_same {V} (m : list (bytes * V)) k : aget (adel m k) k = None.
Proof.
  induction m as [|[k' v] m IH]; simpl; [reflexivity|].
  destruct (beq_bytes k k') eqn:E; [exact IH|]. simpl. now rewrite E.
Qed.

Lemma aget_aset_other {V} (m : list (bytes * V)) k k0 v :
  beq_bytes k k0 = false -> aget (aset m k0 v) k = aget m k.
Proof.
  intro H. induction m as [|[k' v'] m IH]; simpl.
  - now rewrite H.
  - destruct (beq_bytes k0 k') eqn:E0; simpl.
    + apply beq_bytes_eq in E0 as <-. now rewrite H.
    + now rewrite IH.
Qed.

Lemma aget_aset_same {V} (m : list (bytes * V)) k v : aget (aset m k v) k = Some v.
Proof.
  induction m as [|[k' v'] m IH]; simpl.
  - now rewrite beq_bytes_refl.
  - destruct (beq_bytes k k') eqn:E; simpl.
    + now rewrite beq_bytes_refl.
    + now rewrite E.
Qed.

Lemma aget_app_other {V} (m : list (bytes * V)) k k0 v :
  beq_bytes k k0 = false -> aget (m ++ [(k0, v)]) k = aget m k.
Proof.
  intro H. induction m as [|[k' v'] m IH]; simpl.
  - now rewrite H.
  - now rewrite IH.
Qed.

Lemma aget_app_new {V} (m : list (bytes * V)) k v :
  aget m k = None -> aget (m ++ [(k, v)]) k = Some v.
Proof.
  induction m as [|[k' v'] m IH]; simpl; intro H.
  - now rewrite beq_bytes_refl.
  - destruct (beq_bytes k k'); [discriminate|now apply IH].
Qed.

(* n' differs from n at most in what the node has seen, knows of other nodes and has been
   advertised: the part that admission and routing of OTHER sessions depend on is the same, and
   so is whether the node is running *)
Definition kept (n n' : node) : Prop :=
  n_conns n' = n_conns n /\ n_selfrow n' = n_selfrow n /\ n_id n' = n_id n /\ n_epoch n' = n_epoch n /\
  n_listeners n' = n_listeners n /\ n_down n' = n_down n.

Lemma kept_refl n : kept n n.
Proof. now repeat split. Qed.

Lemma add_hash_kept E n nm : kept n (add_hash E n nm).
Proof. unfold add_hash. now destruct (hget _ _). Qed.

Lemma store_ad_kept n a : kept n (store_ad n a).
Proof.
  unfold store_ad.
  destruct (match ads_get (n_wd n) _ _ with Some _ => _ | None => _ end); [apply kept_refl|].
  destruct (match ads_get (n_ads n) _ _ with Some _ => _ | None => _ end); [apply kept_refl|].
  now destruct (ad_cancel a).
Qed.

(* handleRoutingUpdate either is the duplicate-node branch and shuts the node down, or touches
   only what the node has seen and knows of other nodes *)
Lemma handle_ru_cases E n ri :
  (fst (handle_ru E n ri) = shut_down n /\
   ru_node ri = n_id n /\ ru_dup ri = n_epoch n /\ ru_epoch ri <> n_epoch n) \/
  kept n (fst (handle_ru E n ri)).
Proof.
  unfold handle_ru.
  destruct (isnil (ru_node ri)); [right; apply kept_refl|].
  destruct (nonpositive_cost ri); [right; apply kept_refl|].
  destruct (beq_bytes (ru_node ri) (n_id n)) eqn:Eid.
  - destruct (ru_epoch ri =? n_epoch n) eqn:Ee; [right; apply kept_refl|].
    destruct (ru_dup ri =? n_epoch n) eqn:Ed.
    + left. apply beq_bytes_eq in Eid. apply N.eqb_eq in Ed. apply N.eqb_neq in Ee. now repeat split.
    + right. destruct (n_epoch n <? ru_epoch ri); apply kept_refl.
  - right. destruct (bmem (ru_uid ri) (n_seen n)); [apply kept_refl|].
    destruct (negb (ru_dup ri =? 0)); destruct (aget (n_known n) (ru_node ri)) as [[e q]|].
    + now destruct (e =? ru_dup ri).
    + easy.
    + now destruct ((ru_epoch ri <? e) || ((ru_epoch ri =? e) && (ru_seq ri <=? q))).
    + apply (add_hash_kept E (set_known n _ _)).
Qed.

Lemma handle_ru_own E n ri :
  ru_node ri = n_id n -> n_id n <> [] -> nonpositive_cost ri = false ->
  handle_ru E n ri =
  if ru_epoch ri =? n_epoch n then (n, [])
  else if ru_dup ri =? n_epoch n then (shut_down n, [])
  else if n_epoch n <? ru_epoch ri then (n, [ENotify (ru_epoch ri)])
  else (n, []).
Proof. intros H1 H2 H3. unfold handle_ru. apply isnil_false in H2. now rewrite H1, H2, H3, beq_bytes_refl. Qed.

Lemma handle_ru_links E n ri :
  n_conns (fst (handle_ru E n ri)) = n_conns n /\ n_selfrow (fst (handle_ru E n ri)) = n_selfrow n.
Proof. now destruct (handle_ru_cases E n ri) as [(-> & _)|(A & B & _)]. Qed.

Lemma handle_ping_repaired n m : handle_ping repaired n m <> None.
Proof.
  unfold handle_ping. cbn [v_guard_ping repaired andb].
  destruct (beq_bytes (md_fromsvc m) sv_ping); [discriminate|].
  destruct (beq_bytes (md_from m) (n_id n)); [|discriminate].
  destruct (beq_bytes (md_fromsvc m) sv_unreach); [discriminate|].
  destruct (bmem (md_fromsvc m) (n_listeners n)); discriminate.
Qed.

Lemma data_events_repaired n m : data_events repaired n m <> None.
Proof.
  unfold data_events.
  destruct (beq_bytes (md_to m) (n_id n)); [|discriminate].
  destruct (beq_bytes (md_tosvc m) sv_ping); [apply handle_ping_repaired|].
  destruct (beq_bytes (md_tosvc m) sv_unreach); [discriminate|].
  destruct (bmem (md_tosvc m) (n_listeners n)); discriminate.
Qed.

(* The outcomes of the repaired loop on one datagram d, from node n and session s: nothing
   changes; a routing update on an established session goes to handleRoutingUpdate; an
   advertisement is stored; the session is established; it is closed, with or without
   removeConnection.  Never Panic. *)
Inductive effect (E : env) (n : node) (s : sess) (d : bytes) : outcome -> Prop :=
| eff_none evs : effect E n s d (Cont (n, s) evs)
| eff_update body j ri s' :
    s_est s = true -> d = 1 :: body -> tok E body = Some j -> decode_routing_update j = JOk ri ->
    s' = s \/ s' = set_rest s ->
    effect E n s d (Cont (fst (handle_ru E n ri), s') (snd (handle_ru E n ri)))
| eff_advert a : effect E n s d (Cont (store_ad n a, s) [])
| eff_establish id : s_est s = false -> effect E n s d (Cont (establish E n s id) [])
| eff_close rej : effect E n s d (Stop n rej)
| eff_remove rej : effect E n s d (Stop (remove_conn n (s_id s)) rej).

Theorem proto_step_effect E n s d : effect E n s d (proto_step E (n, s) d).
Proof.
  unfold proto_step, proto_step_gen. destruct d as [|ty body]; [apply eff_none|].
  destruct (s_est s) eqn:He.
  - destruct (ty =? 0).
    { destruct (decode_data n (ty :: body)) as [m|]; [|apply eff_none].
      destruct (data_events repaired n m) eqn:Ed; [apply eff_none|].
      now apply data_events_repaired in Ed. }
    destruct (ty =? 1) eqn:E1.
    { apply N.eqb_eq in E1 as ->.
      destruct (tok E body) as [j|] eqn:Ej; [|apply eff_none].
      destruct (decode_routing_update j) as [ri|] eqn:Er; [|apply eff_none].
      unfold step_route_est. rewrite (surjective_pairing (handle_ru E n ri)).
      destruct (negb (beq_bytes (ru_fwd ri) (s_id s))); [apply eff_remove|].
      destruct (beq_bytes (ru_node ri) (s_id s)); [|eapply eff_update; eauto].
      destruct (aget _ (n_id n)) as [rc|].
      - destruct (negb (dy_eqb rc (s_cost s))); [apply eff_remove|eapply eff_update; eauto].
      - destruct (s_rest s); [apply eff_remove|apply eff_none]. }
    destruct (ty =? 2).
    { destruct (tok E body) as [j|]; [|apply eff_none].
      unfold step_advert. destruct (decode_advert j) as [a|]; [|apply eff_none].
      destruct (ad_present a); [apply eff_advert|apply eff_none]. }
    destruct (ty =? 3); [apply eff_remove|apply eff_none].
  - destruct (ty =? 1).
    { destruct (tok E body) as [j|]; [|apply eff_none].
      destruct (decode_routing_update j) as [ri|]; [|apply eff_none].
      destruct (admissible _ _ _ _ _); [now apply eff_establish|apply eff_close]. }
    destruct (ty =? 3); [apply eff_close|apply eff_none].
Qed.

Theorem proto_step_never_panics E st d p : proto_step E st d <> Panic p.
Proof.
  destruct st as [n s]. intro H. pose proof (proto_step_effect E n s d) as X. rewrite H in X. inversion X.
Qed.

Lemma proto_run_gen_never_panics E ds : forall st acc p, proto_run_gen repaired E st ds acc <> RPanic p.
Proof.
  induction ds as [|d ds IH]; intros st acc p; simpl; [discriminate|].
  destruct (proto_step_gen repaired E st d) as [st' evs|n rej|q] eqn:Es.
  - apply IH.
  - discriminate.
  - now apply proto_step_never_panics in Es.
Qed.

Definition ex_node : node :=
  {| n_id := str "victim"%string; n_epoch := 1000; n_conns := [(str "attacker"%string, Dy false 1 0)];
     n_selfrow := [(str "attacker"%string, Dy false 1 0)]; n_hashes := [(17, str "victim"%string)];
     n_listeners := []; n_seen := []; n_known := []; n_ads := []; n_wd := []; n_down := false |}.
Definition ex_bi : binfo := {| bi_cost := Dy false 1 0; bi_nodecost := []; bi_allowed := None |}.
Definition ex_sess_est : sess :=
  {| s_bi := ex_bi; s_est := true; s_rest := false; s_id := str "attacker"%string; s_cost := Dy false 1 0 |}.
Definition cancel_only : bytes := str "{""Cancel"":true}"%string.
Definition ex_env : env :=
  env_of [(cancel_only, JObj [(str "Cancel"%string, JBool true)])] [(str "victim"%string, 17)].
(* <victim>:ping -> <victim>:ping *)
Definition ping_loop_packet : bytes :=
  [0; 30; 0; 0] ++ [0; 0; 0; 0; 0; 0; 0; 17] ++ [0; 0; 0; 0; 0; 0; 0; 17] ++
  str "ping"%string ++ [0; 0; 0; 0] ++ str "ping"%string ++ [0; 0; 0; 0].

Theorem pinned_panics_on_empty_datagram E st : proto_step_pinned E st [] = Panic PEmptyDatagram.
Proof. destruct st. reflexivity. Qed.

Theorem pinned_panics_on_contentless_advert :
  proto_step_pinned ex_env (ex_node, ex_sess_est) (2 :: cancel_only) = Panic PNilAdvert.
Proof. vm_compute. reflexivity. Qed.

Theorem pinned_panics_on_ping_loop :
  proto_step_pinned ex_env (ex_node, ex_sess_est) ping_loop_packet = Panic PPingLoop.
Proof. vm_compute. reflexivity. Qed.

Lemma panic_ends_run V E st d p : proto_step_gen V E st d = Panic p -> proto_run_gen V E st [d] [] = RPanic p.
Proof. intro H. cbn. now rewrite H. Qed.

Theorem pinned_refuted :
  (exists E st ds p, proto_run_pinned E st ds = RPanic p /\ ds = [[]]) /\
  (exists E st ds p, proto_run_pinned E st ds = RPanic p /\ ds = [2 :: cancel_only]) /\
  (exists E st ds p, proto_run_pinned E st ds = RPanic p /\ ds = [ping_loop_packet]).
Proof.
  repeat split; eexists _, _, _, _; (split; [apply panic_ends_run|reflexivity]).
  - exact (pinned_panics_on_empty_datagram ex_env (ex_node, sess_init ex_bi)).
  - exact pinned_panics_on_contentless_advert.
  - exact pinned_panics_on_ping_loop.
Qed.

Example repaired_ignores_witnesses :
  proto_run ex_env (ex_node, ex_sess_est) [[]; 2 :: cancel_only; ping_loop_packet] = RCont (ex_node, ex_sess_est) [].
Proof. vm_compute. reflexivity. Qed.

(* the datagrams the repaired loop drops without looking further, in either phase: empty, of
   unknown type, data that does not decode, JSON that does not parse or does not decode, an
   advertisement without content *)
Definition junk (E : env) (n : node) (d : bytes) : Prop :=
  match d with
  | [] => True
  | ty :: body =>
    if ty =? 0 then decode_data n d = None
    else if ty =? 1 then
      match tok E body with Some j => decode_routing_update j = JErr | None => True end
    else if ty =? 2 then
      match tok E body with
      | Some j => match decode_advert j with JOk a => ad_present a = false | JErr => True end
      | None => True
      end
    else (ty =? 3) = false
  end.

Theorem junk_ignored E st d : junk E (fst st) d -> proto_step E st d = Cont st [].
Proof.
  destruct st as [n s]. destruct d as [|ty body]; [reflexivity|]. cbn [fst junk].
  unfold proto_step, proto_step_gen, step_advert.
  destruct (N.eqb_spec ty 0) as [->|_]; [intros ->; now destruct (s_est s)|].
  destruct (N.eqb_spec ty 1) as [->|_].
  { destruct (tok E body) as [j|]; [intros ->|intros _]; now destruct (s_est s). }
  destruct (N.eqb_spec ty 2) as [->|_].
  { destruct (tok E body) as [j|]; [|now destruct (s_est s)].
    destruct (decode_advert j) as [a|]; [intros ->|intros _]; now destruct (s_est s). }
  intros ->. now destruct (s_est s).
Qed.

Lemma decode_data_short n d : (List.length d < 36)%nat -> decode_data n d = None.
Proof. intro H. unfold decode_data. apply Nat.ltb_lt in H. now rewrite H. Qed.

Lemma decode_data_unknown_hash n d :
  hget (n_hashes n) (be (slice d 4 12)) = None \/ hget (n_hashes n) (be (slice d 12 20)) = None ->
  decode_data n d = None.
Proof.
  intros H. unfold decode_data. destruct (Nat.ltb _ 36); [reflexivity|].
  destruct H as [-> | ->]; [reflexivity|]. now destruct (hget _ (be (slice d 4 12))).
Qed.

Definition same_links_except (k0 : bytes) (n n' : node) : Prop :=
  (forall k, beq_bytes k k0 = false ->
     aget (n_conns n') k = aget (n_conns n) k /\ aget (n_selfrow n') k = aget (n_selfrow n) k) /\
  n_id n' = n_id n /\ n_epoch n' = n_epoch n /\ n_listeners n' = n_listeners n.

Lemma kept_same k0 n n' : kept n n' -> same_links_except k0 n n'.
Proof. intros (A & B & C & D & F & _). unfold same_links_except. rewrite A, B. now repeat split. Qed.

Lemma remove_conn_same n id : same_links_except id n (remove_conn n id).
Proof.
  unfold remove_conn. destruct (isnil id); [apply kept_same, kept_refl|].
  repeat split; cbn [set_conns n_conns n_selfrow]; now apply aget_adel_other.
Qed.

Lemma establish_same E n s id : same_links_except id n (fst (establish E n s id)).
Proof.
  destruct (add_hash_kept E (set_conns n (n_conns n ++ [(id, cost_for (s_bi s) id)])
                                         (aset (n_selfrow n) id (cost_for (s_bi s) id))) id)
    as (A & B & C & D & F & _).
  unfold establish. cbn [fst]. repeat split; try assumption; rewrite ?A, ?B; cbn [set_conns n_conns n_selfrow].
  - now apply aget_app_other.
  - now apply aget_aset_other.
Qed.

Theorem step_touches_only_own_link E n s d :
  match proto_step E (n, s) d with
  | Cont (n', s') _ => same_links_except (s_id s') n n'
  | Stop n' _ => same_links_except (s_id s) n n'
  | Panic _ => False
  end.
Proof.
  destruct (proto_step_effect E n s d) as [evs|body j ri s' _ _ _ _ _|a|id _|rej|rej].
  - apply kept_same, kept_refl.
  - destruct (handle_ru_cases E n ri) as [(-> & _)|K]; [now repeat split|apply kept_same, K].
  - apply kept_same, store_ad_kept.
  - apply establish_same.
  - apply kept_same, kept_refl.
  - apply remove_conn_same.
Qed.

(* a datagram that makes a running node call Shutdown() is a routing update, on an established
   session, that names the node itself as origin and carries the node's own epoch as
   SuspectedDuplicate (under a different UpdateEpoch): the duplicate-node notice *)
Definition duplicate_notice (E : env) (n : node) (d : bytes) : Prop :=
  exists body j ri, d = 1 :: body /\ tok E body = Some j /\ decode_routing_update j = JOk ri /\
    ru_node ri = n_id n /\ ru_dup ri = n_epoch n /\ ru_epoch ri <> n_epoch n.

(* whether the node is running changes with no datagram but that one *)
Lemma down_only_by_notice E n s d :
  match proto_step E (n, s) d with
  | Cont (n', _) _ => n_down n' = n_down n \/ (s_est s = true /\ duplicate_notice E n d)
  | Stop n' _ => n_down n' = n_down n
  | Panic _ => False
  end.
Proof.
  destruct (proto_step_effect E n s d) as [evs|body j ri s' He Hb Hj Hr _|a|id _|rej|rej].
  - now left.
  - destruct (handle_ru_cases E n ri) as [(_ & G)|K]; [right|left; apply K].
    split; [exact He|now exists body, j, ri].
  - left. apply store_ad_kept.
  - left. unfold establish. apply (add_hash_kept E (set_conns n _ _)).
  - reflexivity.
  - unfold remove_conn. now destruct (isnil (s_id s)).
Qed.

(* one such notice, and it does stop the node: anybody who is (or relays through) a neighbour
   can forge it, the epoch being public.  This is the open finding C07-forged-duplicate-shutdown. *)
Definition forged_notice : bytes := str "{""NodeID"":""victim"",""SuspectedDuplicate"":1000,""ForwardingNode"":""attacker""}"%string.
Definition forged_env : env :=
  env_of [(forged_notice, JObj [(str "NodeID"%string, JStr (str "victim"%string) None);
                                (str "SuspectedDuplicate"%string, JNum (NInt false 1000));
                                (str "ForwardingNode"%string, JStr (str "attacker"%string) None)])] [].

Theorem forged_duplicate_notice_stops_the_node :
  exists n' s' evs, proto_step forged_env (ex_node, ex_sess_est) (1 :: forged_notice) = Cont (n', s') evs /\
                    n_down ex_node = false /\ n_down n' = true.
Proof.
  eexists _, _, _. split; [vm_compute; reflexivity|]. split; reflexivity.
Qed.

(* no datagram of ds is a routing update that names self with epoch as SuspectedDuplicate under
   another UpdateEpoch *)
Fixpoint no_notice (E : env) (self : bytes) (epoch : N) (ds : list bytes) : bool :=
  match ds with
  | [] => true
  | d :: r =>
    match d with
    | 1 :: body =>
      match tok E body with
      | Some j => match decode_routing_update j with
                  | JOk ri => negb (beq_bytes (ru_node ri) self && (ru_dup ri =? epoch) && negb (ru_epoch ri =? epoch))
                  | JErr => true
                  end
      | None => true
      end
    | _ => true
    end && no_notice E self epoch r
  end.

Definition result_node (r : run_result) : option node :=
  match r with RCont (n, _) _ => Some n | RStop n _ _ => Some n | RPanic _ => None end.

Theorem keeps_running_without_notice E ds : forall n s acc,
  n_down n = false -> no_notice E (n_id n) (n_epoch n) ds = true ->
  exists n', result_node (proto_run_gen repaired E (n, s) ds acc) = Some n' /\ n_down n' = false.
Proof.
  induction ds as [|d ds IH]; intros n s acc Hd Hn; cbn [proto_run_gen].
  - exists n. split; [reflexivity|assumption].
  - cbn [no_notice] in Hn. apply andb_true_iff in Hn as [Hn1 Hn2].
    pose proof (step_touches_only_own_link E n s d) as Hid. pose proof (down_only_by_notice E n s d) as Hdn.
    fold proto_step. destruct (proto_step E (n, s) d) as [[n1 s1] evs|n1 rej|p]; [| |contradiction].
    + destruct Hid as (_ & Hi & He & _).
      destruct Hdn as [Hdn|(_ & body & j & ri & -> & Hj & Hr & G1 & G2 & G3)].
      * apply IH; congruence.
      * rewrite Hj, Hr, G1, G2, beq_bytes_refl, N.eqb_refl in Hn1. apply N.eqb_neq in G3. now rewrite G3 in Hn1.
    + exists n1. split; [reflexivity|congruence].
Qed.

Theorem keeps_running_refuted :
  exists E n s d n' s' evs, s_est s = true /\ n_down n = false /\
    proto_step E (n, s) d = Cont (n', s') evs /\ n_down n' = true.
Proof.
  destruct forged_duplicate_notice_stops_the_node as (n' & s' & evs & H1 & H2 & H3).
  exists forged_env, ex_node, ex_sess_est, (1 :: forged_notice), n', s', evs.
  repeat split; assumption.
Qed.

(* [no_notice] holds of a non-trivial sequence *)
Example no_notice_example :
  no_notice ex_env (n_id ex_node) (n_epoch ex_node) [[]; 2 :: cancel_only; ping_loop_packet; [1; 123]; [3]] = true.
Proof. vm_compute. reflexivity. Qed.

Theorem frame_pop_exact b m rest : frame_pop b = Some (m, rest) ->
  exists lo hi, b = lo :: hi :: m ++ rest /\ List.length m = N.to_nat (lo + 256 * hi).
Proof.
  unfold frame_pop. destruct b as [|lo [|hi r]]; try discriminate.
  destruct (Nat.leb (N.to_nat (lo + 256 * hi)) (List.length r)) eqn:E; [|discriminate].
  intro H. inversion H; subst. exists lo, hi. split.
  - now rewrite firstn_skipn.
  - apply Nat.leb_le in E. now rewrite firstn_length_le.
Qed.

Theorem frame_pop_waits lo hi r :
  frame_pop (lo :: hi :: r) = None <-> (List.length r < N.to_nat (lo + 256 * hi))%nat.
Proof.
  unfold frame_pop. destruct (Nat.leb (N.to_nat (lo + 256 * hi)) (List.length r)) eqn:E.
  - apply Nat.leb_le in E. split; intro H; [discriminate|exfalso; lia].
  - apply Nat.leb_gt in E. split; intro H; [exact E|reflexivity].
Qed.

(* the two headers a 16-bit sum would wrap on announce 65534 and 65535 bytes, not 0 and 1 *)
Example frame_pop_no_wrap :
  frame_pop [254; 255; 1; 2; 3] = None /\ frame_pop [255; 255; 1; 2; 3] = None /\
  frame_pop [0; 0; 1; 2; 3] = Some ([], [1; 2; 3]) /\ frame_pop [1; 0; 1; 2; 3] = Some ([1], [2; 3]).
Proof. vm_compute. repeat split. Qed.

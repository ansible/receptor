(* Proofs/Regex.v — the derivative matcher of Model/Regex.v decides the inductive language. *)
From Receptor Require Import Model.Regex.
Open Scope N_scope.

(* What a derivation of [lang r s] was built from, by the shape of [r].  Used instead of
   [inversion], which has to be run again on every concrete constructor. *)
Lemma lang_inv r s : lang r s ->
  match r with
  | RNull => False
  | REps => s = []
  | RSet cs => exists c, s = [c] /\ cs_mem cs c = true
  | RCat a b => exists s1 s2, s = s1 ++ s2 /\ lang a s1 /\ lang b s2
  | RAlt a b => lang a s \/ lang b s
  | RStar a => s = [] \/ exists s1 s2, s = s1 ++ s2 /\ lang a s1 /\ lang (RStar a) s2
  | RPlus a => exists s1 s2, s = s1 ++ s2 /\ lang a s1 /\ lang (RStar a) s2
  | ROpt a => s = [] \/ lang a s
  | RGroup a => lang a s
  end.
Proof. destruct 1; eauto 7. Qed.

Lemma lang_null s : ~ lang RNull s.
Proof. exact (lang_inv RNull s). Qed.

Lemma mk_cat_cases a b :
  (a = RNull \/ b = RNull) /\ mk_cat a b = RNull \/ a = REps /\ mk_cat a b = b \/
  b = REps /\ mk_cat a b = a \/ mk_cat a b = RCat a b.
Proof. destruct a; auto; destruct b; auto 6. Qed.

Lemma mk_cat_spec a b s : lang (mk_cat a b) s <-> lang (RCat a b) s.
Proof.
  destruct (mk_cat_cases a b) as [[Hn ->] | [[-> ->] | [[-> ->] | ->]]].
  - split; intro H; apply lang_inv in H; [contradiction|].
    destruct H as (s1 & s2 & _ & H1 & H2).
    destruct Hn as [-> | ->]; [now apply lang_inv in H1 | now apply lang_inv in H2].
  - split; intro H.
    + exact (LCat REps b [] s LEps H).
    + apply lang_inv in H as (s1 & s2 & -> & H1 & H2). apply lang_inv in H1 as ->. exact H2.
  - split; intro H.
    + rewrite <- (app_nil_r s). exact (LCat a REps s [] H LEps).
    + apply lang_inv in H as (s1 & s2 & -> & H1 & H2). apply lang_inv in H2 as ->.
      now rewrite app_nil_r.
  - reflexivity.
Qed.

Lemma mk_alt_cases a b :
  a = RNull /\ mk_alt a b = b \/ b = RNull /\ mk_alt a b = a \/ mk_alt a b = RAlt a b.
Proof. destruct a; auto; destruct b; auto. Qed.

Lemma mk_alt_spec a b s : lang (mk_alt a b) s <-> lang a s \/ lang b s.
Proof.
  destruct (mk_alt_cases a b) as [[-> ->] | [[-> ->] | ->]].
  - split; [now right | intros [H|H]; [now apply lang_inv in H | exact H]].
  - split; [now left | intros [H|H]; [exact H | now apply lang_inv in H]].
  - split; [apply lang_inv | intros [H|H]; [now apply LAltL | now apply LAltR]].
Qed.

Lemma nullable_spec r : nullable r = true <-> lang r [].
Proof.
  induction r; simpl.
  - split; [discriminate | intro H; now apply lang_inv in H].
  - split; [constructor | reflexivity].
  - split; [discriminate | intro H; now apply lang_inv in H as (c & H & _)].
  - rewrite andb_true_iff, IHr1, IHr2. split.
    + intros [H1 H2]. exact (LCat _ _ [] [] H1 H2).
    + intro H. apply lang_inv in H as (s1 & s2 & E & H1 & H2).
      symmetry in E. apply app_eq_nil in E as [-> ->]. auto.
  - rewrite orb_true_iff, IHr1, IHr2. split.
    + intros [H|H]; [now apply LAltL | now apply LAltR].
    + apply lang_inv.
  - split; [constructor | reflexivity].
  - rewrite IHr. split.
    + intro H. exact (LPlus _ [] [] H (LStar0 _)).
    + intro H. apply lang_inv in H as (s1 & s2 & E & H1 & _).
      symmetry in E. apply app_eq_nil in E as [-> _]. exact H1.
  - split; [constructor | reflexivity].
  - rewrite IHr. split; [apply LGroup | apply lang_inv].
Qed.

Lemma star_cons a c s :
  lang (RStar a) (c :: s) ->
  exists s1 s2, s = s1 ++ s2 /\ lang a (c :: s1) /\ lang (RStar a) s2.
Proof.
  (* induction on the derivation: iterations that matched the empty text are skipped *)
  intro H. remember (RStar a) as r eqn:Er. remember (c :: s) as t eqn:Et.
  induction H; try discriminate.
  injection Er as ->. destruct s1 as [|d s1]; simpl in Et.
  - auto.
  - injection Et as -> <-. eauto.
Qed.

Lemma deriv_spec c r : forall s, lang (deriv c r) s <-> lang r (c :: s).
Proof.
  induction r; simpl; intro s.
  - split; intro H; now apply lang_inv in H.
  - split; intro H; now apply lang_inv in H.
  - split; intro H.
    + destruct (cs_mem cs c) eqn:E; apply lang_inv in H; [subst; now constructor | contradiction].
    + apply lang_inv in H as (d & [= <- ->] & ->). constructor.
  - split; intro H.
    + assert (Hc : forall t, lang (mk_cat (deriv c r1) r2) t -> lang (RCat r1 r2) (c :: t)).
      { intros t Ht. apply mk_cat_spec, lang_inv in Ht as (s1 & s2 & -> & H1 & H2).
        apply IHr1 in H1. exact (LCat _ _ (c :: s1) s2 H1 H2). }
      destruct (nullable r1) eqn:En; [|auto].
      apply mk_alt_spec in H as [H|H]; [auto|].
      apply nullable_spec in En. apply IHr2 in H. exact (LCat _ _ [] (c :: s) En H).
    + apply lang_inv in H as (s1 & s2 & E & Ha & Hb). destruct s1 as [|d s1]; simpl in E.
      * subst s2. apply nullable_spec in Ha. rewrite Ha. apply mk_alt_spec. right. now apply IHr2.
      * injection E as <- ->. apply IHr1 in Ha.
        assert (Hc : lang (mk_cat (deriv c r1) r2) (s1 ++ s2))
          by (apply mk_cat_spec; now constructor).
        destruct (nullable r1); [apply mk_alt_spec; now left | exact Hc].
  - rewrite mk_alt_spec, IHr1, IHr2. split.
    + intros [H|H]; [now apply LAltL | now apply LAltR].
    + apply lang_inv.
  - rewrite mk_cat_spec. split; intro H.
    + apply lang_inv in H as (s1 & s2 & -> & H1 & H2). apply IHr in H1.
      exact (LStarS _ (c :: s1) s2 H1 H2).
    + apply star_cons in H as (s1 & s2 & -> & H1 & H2). apply IHr in H1. now constructor.
  - rewrite mk_cat_spec. split; intro H.
    + apply lang_inv in H as (s1 & s2 & -> & H1 & H2). apply IHr in H1.
      exact (LPlus _ (c :: s1) s2 H1 H2).
    + assert (Hs : lang (RStar r) (c :: s)).
      { apply lang_inv in H as (s1 & s2 & -> & H1 & H2). now constructor. }
      apply star_cons in Hs as (s1 & s2 & -> & H1 & H2). apply IHr in H1. now constructor.
  - rewrite IHr. split; [apply LOptS | intro H; now apply lang_inv in H as [H|H]].
  - rewrite IHr. split; [apply LGroup | apply lang_inv].
Qed.

Theorem full_spec : forall r s, full r s = true <-> lang r s.
Proof.
  intros r s. revert r. induction s as [|c s IH]; intro r; simpl.
  - apply nullable_spec.
  - rewrite IH. apply deriv_spec.
Qed.

Corollary full_false r s : full r s = false <-> ~ lang r s.
Proof. rewrite <- full_spec. symmetry. apply not_true_iff_false. Qed.

Lemma all_lang s : lang r_all s.
Proof.
  induction s as [|c s IH].
  - constructor.
  - exact (LStarS _ [c] s (LSet (CsSet true []) c eq_refl) IH).
Qed.

Lemma prefix_match_spec r s :
  prefix_match r s = true <-> exists p q, s = p ++ q /\ lang r p.
Proof.
  unfold prefix_match. rewrite full_spec. split.
  - intro H. apply lang_inv in H as (p & q & E & H & _). eauto.
  - intros (p & q & -> & H). constructor; auto using all_lang.
Qed.

Lemma suffix_match_spec r s :
  suffix_match r s = true <-> exists p q, s = p ++ q /\ lang r q.
Proof.
  unfold suffix_match. rewrite full_spec. split.
  - intro H. apply lang_inv in H as (p & q & E & _ & H). eauto.
  - intros (p & q & -> & H). constructor; auto using all_lang.
Qed.

Lemma infix_match_spec r s :
  infix_match r s = true <-> exists p m q, s = p ++ m ++ q /\ lang r m.
Proof.
  unfold infix_match. rewrite full_spec. split.
  - intro H. apply lang_inv in H as (p & t & -> & _ & H).
    apply lang_inv in H as (m & q & -> & H & _). eauto.
  - intros (p & m & q & -> & H). repeat constructor; auto using all_lang.
Qed.

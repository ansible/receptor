(* Proofs/Results.v — the reader of Model/Results.v (property C05).  Every theorem goes through
   what one step of the reader sends and when it finishes; invariants are carried along a run by
   [run_from_invariant] (world, reader and bytes sent), [along_invariant] (the world alone) and
   [polls_invariant] (polls in a world that stands still); the producer's contract is treated as a
   case of the mirror's. *)
From Coq Require Import ZArith Lia.
From Receptor Require Import Base.ListFacts Model.Results Proofs.Pattern.
Open Scope N_scope.

Lemma rlen_app a b : rlen (a ++ b) = rlen a + rlen b.
Proof. unfold rlen. rewrite app_length. lia. Qed.

Lemma skipn_past (s : N) (out em rest : bytes) :
  skipn (N.to_nat s) out = em ++ rest -> skipn (N.to_nat (s + rlen em)) out = rest.
Proof.
  intro H. replace (N.to_nat (s + rlen em)) with (N.to_nat s + length em)%nat by (unfold rlen; lia).
  rewrite <- skipn_skipn, H. now apply skipn_app_exact.
Qed.

Lemma sent_all (s : N) (out em rest : bytes) :
  skipn (N.to_nat s) out = em ++ rest -> rlen out <= s + rlen em -> rest = [].
Proof.
  intros H Hle. apply (f_equal (@length N)) in H. rewrite skipn_length, app_length in H.
  destruct rest; [reflexivity|]. unfold rlen in Hle. simpl in H. lia.
Qed.

Lemma is_prefix_spec (a b : bytes) : is_prefix a b = true <-> exists c, b = a ++ c.
Proof. exact (prefix_bytes_iff a b). Qed.

Lemma concat_emit (c : bytes) (cs : list bytes) :
  concat (match c with [] => cs | _ => c :: cs end) = c ++ concat cs.
Proof. destruct c; reflexivity. Qed.

Lemma env_step_output w e :
  w_output (env_step w e) = w_output w ++ match e with EAppend b => b | _ => [] end.
Proof.
  unfold w_output. destruct e; simpl; [destruct (w_file w) eqn:E; simpl; rewrite ?E|..];
    now rewrite ?app_nil_r.
Qed.

Lemma env_step_state w e :
  w_state (env_step w e) = match e with ESetStatus st _ => st | _ => w_state w end.
Proof. destruct e; try reflexivity. simpl. now destruct (w_file w). Qed.

Lemma env_step_size w e :
  w_size (env_step w e) = match e with ESetStatus _ sz => sz | _ => w_size w end.
Proof. destruct e; try reflexivity. simpl. now destruct (w_file w). Qed.

Lemma world_after_app t1 t2 : world_after (t1 ++ t2) = fold_left env_step t2 (world_after t1).
Proof. unfold world_after. apply fold_left_app. Qed.

Lemma run_from_world d s tr : forall w ph,
  snd (run_from d s w ph tr) = fold_left env_step tr w.
Proof.
  induction tr as [|e r IH]; intros w ph; [reflexivity|].
  destruct e; simpl; try apply IH.
  destruct (reader_step d s w ph n) as [ph' c].
  specialize (IH w ph'). destruct (run_from d s w ph' r) as [[cs phf] wf]. exact IH.
Qed.

Lemma run_from_app d s t1 : forall t2 w ph,
  run_from d s w ph (t1 ++ t2) =
  let '(c1, ph1, w1) := run_from d s w ph t1 in
  let '(c2, ph2, w2) := run_from d s w1 ph1 t2 in
  (c1 ++ c2, ph2, w2).
Proof.
  induction t1 as [|e r IH]; intros t2 w ph.
  - simpl. now destruct (run_from d s w ph t2) as [[c2 ph2] w2].
  - destruct e; simpl; try apply IH.
    destruct (reader_step d s w ph n) as [ph' c].
    rewrite IH.
    destruct (run_from d s w ph' r) as [[c1 ph1] w1].
    destruct (run_from d s w1 ph1 t2) as [[c2 ph2] w2].
    destruct c; reflexivity.
Qed.

Lemma run_from_done d s tr : forall w,
  run_from d s w RDone tr = ([], RDone, fold_left env_step tr w).
Proof.
  induction tr as [|e r IH]; intros w; [reflexivity|].
  destruct e; simpl; try apply IH. now rewrite IH.
Qed.

Lemma results_run_done_stays d s tr tr' :
  snd (results_run_with d s tr) = true ->
  results_run_with d s (tr ++ tr') = results_run_with d s tr.
Proof.
  unfold results_run_with. rewrite run_from_app.
  destruct (run_from d s world0 RWait tr) as [[cs ph] w]. simpl.
  destruct ph; try discriminate. intros _. now rewrite run_from_done, app_nil_r.
Qed.

(* the shape of both contracts of Model/Results.v: a check on every event, in the world it meets *)
Fixpoint along (C : world -> env_ev -> bool) (w : world) (tr : list env_ev) : bool :=
  match tr with
  | [] => true
  | e :: r => C w e && along C (env_step w e) r
  end.

Lemma along_true tr : forall w, along (fun _ _ => true) w tr = true.
Proof. induction tr as [|e r IH]; intro w; [reflexivity|apply IH]. Qed.

Lemma along_app C t1 : forall w t2,
  along C w (t1 ++ t2) = along C w t1 && along C (fold_left env_step t1 w) t2.
Proof.
  induction t1 as [|e r IH]; intros w t2; [reflexivity|].
  simpl. now rewrite IH, andb_assoc.
Qed.

Lemma along_invariant C (Q : world -> Prop) :
  (forall w e, C w e = true -> Q w -> Q (env_step w e)) ->
  forall tr w, along C w tr = true -> Q w -> Q (fold_left env_step tr w).
Proof.
  intros Hstep. induction tr as [|e r IH]; intros w Hc Hq; [exact Hq|].
  simpl in *. apply andb_true_iff in Hc as [Hc1 Hc2]. exact (IH _ Hc2 (Hstep w e Hc1 Hq)).
Qed.

Lemma along_implies C C' (Q : world -> Prop) :
  (forall w e, C w e = true -> Q w -> Q (env_step w e)) ->
  (forall w e, C w e = true -> Q w -> C' w e = true) ->
  forall tr w, along C w tr = true -> Q w -> along C' w tr = true.
Proof.
  intros Hstep Himp. induction tr as [|e r IH]; intros w Hc Hq; [reflexivity|].
  simpl in *. apply andb_true_iff in Hc as [Hc1 Hc2].
  rewrite (Himp w e Hc1 Hq). exact (IH _ Hc2 (Hstep w e Hc1 Hq)).
Qed.

Section RunInvariant.
  Variables (d : N -> bool) (s : N) (C : world -> env_ev -> bool).
  Variable P : world -> rphase -> bytes -> Prop.
  Hypothesis P_env : forall w ph em e, C w e = true -> P w ph em -> P (env_step w e) ph em.
  Hypothesis P_poll : forall w ph em n, P w ph em ->
    let '(ph', c) := reader_step d s w ph n in P w ph' (em ++ c).

  Lemma run_from_invariant tr : forall w ph em,
    along C w tr = true -> P w ph em ->
    exists cs phf, run_from d s w ph tr = (cs, phf, fold_left env_step tr w) /\
                   P (fold_left env_step tr w) phf (em ++ concat cs).
  Proof.
    induction tr as [|e r IH]; intros w ph em Hc H.
    - exists [], ph. rewrite app_nil_r. now split.
    - simpl in Hc. apply andb_true_iff in Hc as [Hc1 Hc2].
      destruct e as [|b|st sz|n].
      1-3: exact (IH _ ph em Hc2 (P_env w ph em _ Hc1 H)).
      specialize (P_poll w ph em n H). simpl. destruct (reader_step d s w ph n) as [ph' c].
      destruct (IH w ph' (em ++ c) Hc2 P_poll) as (cs & phf & E & HP).
      rewrite E. eexists _, phf. split; [reflexivity|].
      rewrite concat_emit, app_assoc. exact HP.
  Qed.
End RunInvariant.

(* the offset of the next byte an open reader sends *)
Definition rpos (start : N) (ph : rphase) : option N :=
  match ph with
  | RWait => Some start
  | RRead pos | REof pos => Some pos
  | RDone => None
  end.

Lemma reader_step_sends d s w ph n p :
  rpos s ph = Some p ->
  let '(ph', c) := reader_step d s w ph n in
  (exists rest, skipn (N.to_nat p) (w_output w) = c ++ rest) /\
  (ph' <> RDone -> rpos s ph' = Some (p + rlen c)).
Proof.
  assert (Hsilent : forall ph', (ph' = RDone \/ rpos s ph' = Some p) ->
            (exists rest, skipn (N.to_nat p) (w_output w) = [] ++ rest) /\
            (ph' <> RDone -> rpos s ph' = Some (p + rlen []))).
  { intros ph' H. split; [now eexists|]. rewrite N.add_0_r. now destruct H. }
  destruct ph as [|pos|pos|]; simpl; intro H; inversion H; subst.
  - destruct (w_file w); [|destruct (d (w_state w))]; apply Hsilent; auto.
  - destruct (slice (w_output w) p (chunk n)) as [|x c] eqn:Es; [apply Hsilent; auto|].
    rewrite <- Es. split; [|reflexivity].
    eexists. unfold slice. symmetry. apply firstn_skipn.
  - destruct (d (w_state w) && (w_size w <=? p)); apply Hsilent; auto.
Qed.

Lemma reader_finish_covers_thm : forall d start w ph n,
  ph <> RDone -> fst (reader_step d start w ph n) = RDone ->
  d (w_state w) = true /\ (w_file w = None \/ exists pos, ph = REof pos /\ w_size w <= pos).
Proof.
  intros d s w ph n Hne H. destruct ph as [|pos|pos|]; simpl in H.
  - destruct (w_file w); [discriminate|]. destruct (d (w_state w)); [auto|discriminate].
  - destruct (slice (w_output w) pos (chunk n)); discriminate.
  - destruct (d (w_state w)); simpl in H; [|discriminate].
    destruct (w_size w <=? pos) eqn:E; [|discriminate]. apply N.leb_le in E.
    split; [reflexivity|]. right. now exists pos.
  - congruence.
Qed.

Lemma reader_finish_silent d s w ph n :
  fst (reader_step d s w ph n) = RDone -> snd (reader_step d s w ph n) = [].
Proof.
  destruct ph as [|pos|pos|]; simpl; try reflexivity.
  - destruct (w_file w); [discriminate|]. now destruct (d (w_state w)).
  - destruct (slice (w_output w) pos (chunk n)); discriminate.
  - now destruct (d (w_state w) && (w_size w <=? pos)).
Qed.

(* [target s w] is what the client is entitled to: the output from the start offset on.  What
   the reader has emitted is the beginning of it, and an open reader stands at its end. *)
Definition target (s : N) (w : world) : bytes := skipn (N.to_nat s) (w_output w).

Definition rinv (s : N) (w : world) (ph : rphase) (em : bytes) : Prop :=
  (exists rest, target s w = em ++ rest) /\
  (forall p, rpos s ph = Some p -> p = s + rlen em).

Lemma target_env s w e : exists y, target s (env_step w e) = target s w ++ y.
Proof. unfold target. rewrite env_step_output, skipn_app. now eexists. Qed.

Lemma rinv_env s w ph em e : rinv s w ph em -> rinv s (env_step w e) ph em.
Proof.
  intros [[rest Hr] Hp]. destruct (target_env s w e) as [y Hy].
  split; [|exact Hp]. exists (rest ++ y). now rewrite Hy, Hr, app_assoc.
Qed.

Lemma rinv_step d s w ph em n : rinv s w ph em ->
  let '(ph', c) := reader_step d s w ph n in rinv s w ph' (em ++ c).
Proof.
  intros [[rest Hr] Hp]. destruct (rpos s ph) as [p|] eqn:Ep.
  - pose proof (reader_step_sends d s w ph n p Ep) as H.
    destruct (reader_step d s w ph n) as [ph' c]. destruct H as [[rest' Hc] Hp'].
    rewrite (Hp p eq_refl), (skipn_past s _ em rest Hr) in *. subst rest. split.
    + exists rest'. now rewrite Hr, app_assoc.
    + intros q Hq. rewrite Hp' in Hq by (intros ->; discriminate).
      inversion Hq. rewrite rlen_app. lia.
  - destruct ph; try discriminate. simpl. rewrite app_nil_r. split; [now exists rest|exact Hp].
Qed.

Lemma run_from_rinv d s tr w ph em : rinv s w ph em ->
  exists cs phf, run_from d s w ph tr = (cs, phf, fold_left env_step tr w) /\
                 rinv s (fold_left env_step tr w) phf (em ++ concat cs).
Proof.
  apply (run_from_invariant d s (fun _ _ => true)); [|apply rinv_step|apply along_true].
  intros w' ph' em' e _. apply rinv_env.
Qed.

Lemma rinv0 s : rinv s world0 RWait [].
Proof. split; [exists []; apply skipn_nil|]. intros p H. inversion H. symmetry. apply N.add_0_r. Qed.

Definition cstep (fin : N -> bool) (w : world) (e : env_ev) : bool :=
  match e with
  | EAppend _ => negb (fin (w_state w))
  | ESetStatus st sz => if fin st then sz =? rlen (w_output w) else negb (fin (w_state w))
  | _ => true
  end.

Definition cstep_m (fin : N -> bool) (w : world) (e : env_ev) : bool :=
  match e with
  | EAppend b => if fin (w_state w) then rlen (w_output w) + rlen b <=? w_size w else true
  | ESetStatus st sz =>
    if fin st
    then (rlen (w_output w) <=? sz) && (has_file w || (sz =? 0)) &&
         (if fin (w_state w) then sz =? w_size w else true)
    else negb (fin (w_state w))
  | _ => true
  end.

Lemma contract_along fin tr : forall w, contract_from fin w tr = along (cstep fin) w tr.
Proof. induction tr as [|e r IH]; intro w; simpl; [|rewrite IH]; reflexivity. Qed.

Lemma contract_m_along fin tr : forall w, contract_m_from fin w tr = along (cstep_m fin) w tr.
Proof. induction tr as [|e r IH]; intro w; simpl; [|rewrite IH]; reflexivity. Qed.

Definition env_only (tr : list env_ev) : list env_ev := filter (fun e => negb (is_poll e)) tr.

Lemma contract_env_only fin tr : forall w,
  contract_from fin w (env_only tr) = contract_from fin w tr.
Proof.
  induction tr as [|e r IH]; intro w; [reflexivity|].
  destruct e; simpl; rewrite ?IH; reflexivity.
Qed.

Lemma world_after_env_only tr : forall w,
  fold_left env_step (env_only tr) w = fold_left env_step tr w.
Proof.
  induction tr as [|e r IH]; intro w; [reflexivity|].
  destruct e; simpl; apply IH.
Qed.

(* producer's contract: a finishing status carries the size of the output *)
Definition winv (fin : N -> bool) (w : world) : Prop :=
  fin (w_state w) = true -> w_size w = rlen (w_output w).

(* mirror's contract: the copy is not longer than the size a finishing record carries, and
   exists if that is not 0 *)
Definition winv_m (fin : N -> bool) (w : world) : Prop :=
  fin (w_state w) = true -> rlen (w_output w) <= w_size w /\ (w_file w = None -> w_size w = 0).

Lemma winv_env fin w e : cstep fin w e = true -> winv fin w -> winv fin (env_step w e).
Proof.
  unfold winv. intros Hc Hw. rewrite env_step_output, env_step_state, env_step_size.
  destruct e as [|b|st sz|n]; simpl in *; rewrite ?app_nil_r; [exact Hw| | |exact Hw].
  - (* an append: only while the unit is not done *)
    intro H. rewrite H in Hc. discriminate.
  - (* a status *)
    intro H. rewrite H in Hc. now apply N.eqb_eq in Hc.
Qed.

(* what the producer's contract permits the mirror's contract permits too: a finishing status
   set again repeats the size, which is that of the output *)
Lemma cstep_cstep_m fin w e : cstep fin w e = true -> winv fin w -> cstep_m fin w e = true.
Proof.
  unfold winv. intros Hc Hw. destruct e as [|b|st sz|n]; simpl in *; try reflexivity.
  - apply negb_true_iff in Hc. now rewrite Hc.
  - destruct (fin st); [|exact Hc]. apply N.eqb_eq in Hc. subst sz.
    rewrite N.leb_refl. apply andb_true_iff. split.
    + unfold has_file, w_output. now destruct (w_file w).
    + destruct (fin (w_state w)); [|reflexivity]. rewrite (Hw eq_refl). apply N.eqb_refl.
Qed.

Lemma winv0 fin : fin ST_PENDING = false -> winv fin world0.
Proof. unfold winv. simpl. intros H H'. rewrite H in H'. discriminate. Qed.

Lemma contract_winv tr : contract tr = true -> winv results_done (world_after tr).
Proof.
  unfold contract. rewrite contract_along. intro Hc.
  exact (along_invariant _ _ (winv_env results_done) tr world0 Hc (winv0 _ eq_refl)).
Qed.

Lemma contract_contract_m tr : contract tr = true -> contract_m tr = true.
Proof.
  unfold contract, contract_m. rewrite contract_along, contract_m_along. intro Hc.
  exact (along_implies _ _ _ (winv_env results_done) (cstep_cstep_m results_done)
           tr world0 Hc (winv0 _ eq_refl)).
Qed.

Lemma winv_m_env fin w e : cstep_m fin w e = true -> winv_m fin w -> winv_m fin (env_step w e).
Proof.
  unfold winv_m. intros Hc Hw. rewrite env_step_output, env_step_state, env_step_size.
  destruct e as [|b|st sz|n]; simpl in *; rewrite ?app_nil_r; [| | |exact Hw].
  - (* the file is created: there is one *)
    intro H. destruct (Hw H) as [H1 _]. split; [exact H1|]. destruct (w_file w) eqn:E; simpl; rewrite ?E; discriminate.
  - (* an append *)
    intro H. rewrite H in Hc. apply N.leb_le in Hc. rewrite rlen_app. split; [exact Hc|discriminate].
  - (* a status *)
    intro H. rewrite H in Hc.
    apply andb_true_iff in Hc as [Hc _]. apply andb_true_iff in Hc as [H1 H2].
    apply N.leb_le in H1. split; [exact H1|].
    intro Hn. unfold has_file in H2. rewrite Hn in H2. now apply N.eqb_eq in H2.
Qed.

Lemma winv_winv_m fin w : winv fin w -> winv_m fin w.
Proof.
  intros Hw Hf. rewrite (Hw Hf). split; [apply N.le_refl|]. unfold w_output. now intros ->.
Qed.

Lemma finish_position fin s w ph n :
  winv_m fin w -> fst (reader_step fin s w ph n) = RDone ->
  snd (reader_step fin s w ph n) = [] /\
  (ph = RDone \/ fin (w_state w) = true /\ exists p, rpos s ph = Some p /\ w_size w <= p).
Proof.
  intros Hw H. split; [exact (reader_finish_silent fin s w ph n H)|].
  destruct (rpos s ph) as [p|] eqn:Ep; [right|left; now destruct ph].
  assert (Hne : ph <> RDone) by (intros ->; discriminate).
  destruct (reader_finish_covers_thm fin s w ph n Hne H) as [Hf Hcase].
  split; [exact Hf|]. exists p. split; [reflexivity|]. destruct Hcase as [Hnone|[pos [-> Hle]]].
  - destruct (Hw Hf) as [_ H0]. rewrite (H0 Hnone). lia.
  - now inversion Ep; subst.
Qed.

(* once finished: everything from the start offset on has been delivered, up to the recorded size *)
Definition dinv_m (fin : N -> bool) (s : N) (w : world) (ph : rphase) (em : bytes) : Prop :=
  ph = RDone -> fin (w_state w) = true /\ em = target s w /\ w_size w <= s + rlen em.

Lemma dinv_m_env fin s w ph em e :
  cstep_m fin w e = true -> dinv_m fin s w ph em -> dinv_m fin s (env_step w e) ph em.
Proof.
  unfold dinv_m, target. intros Hc Hd Hph. destruct (Hd Hph) as [Hf [Hem Hsz]].
  rewrite env_step_output, env_step_state, env_step_size.
  destruct e as [|b|st sz|n]; simpl in *; rewrite ?app_nil_r; [now repeat split| | |now repeat split].
  - (* an append: bytes appended within the recorded size lie before the start offset *)
    rewrite Hf in Hc. apply N.leb_le in Hc. repeat split; auto.
    rewrite skipn_app, <- Hem.
    rewrite (sent_all s (w_output w ++ b) em (skipn (N.to_nat s - length (w_output w)) b)).
    + now rewrite app_nil_r.
    + now rewrite skipn_app, <- Hem.
    + rewrite rlen_app. lia.
  - (* a status: a finishing one again, with the same size *)
    rewrite Hf in Hc. destruct (fin st); [|discriminate].
    apply andb_true_iff in Hc as [_ Hc]. apply N.eqb_eq in Hc. subst sz. now repeat split.
Qed.

Lemma dinv_m_step fin s w ph em n :
  winv_m fin w -> rinv s w ph em -> dinv_m fin s w ph em ->
  let '(ph', c) := reader_step fin s w ph n in dinv_m fin s w ph' (em ++ c).
Proof.
  intros Hw [[rest Hr] Hp] Hd. pose proof (finish_position fin s w ph n Hw) as H.
  destruct (reader_step fin s w ph n) as [ph' c]. simpl in H. intros ->.
  destruct (H eq_refl) as [-> [->|(Hf & p & Hpos & Hle)]]; rewrite app_nil_r; [exact (Hd eq_refl)|].
  rewrite (Hp p Hpos) in Hle. destruct (Hw Hf) as [Hlen _].
  assert (rest = []) as -> by (apply (sent_all s _ em rest Hr); lia).
  rewrite app_nil_r in Hr. now repeat split.
Qed.

Lemma dinv_m0 fin s : dinv_m fin s world0 RWait [].
Proof. unfold dinv_m. discriminate. Qed.

Theorem results_exact_mirrored_thm : forall start tr,
  contract_m tr = true ->
  let '(cs, fin) := results_run start tr in
  is_prefix (concat cs) (skipn (N.to_nat start) (output_of tr)) = true /\
  (fin = true ->
   concat cs = skipn (N.to_nat start) (output_of tr) /\
   results_done (w_state (world_after tr)) = true /\
   w_size (world_after tr) <= start + rlen (concat cs) /\
   (start < w_size (world_after tr) -> rlen (output_of tr) = w_size (world_after tr))).
Proof.
  intros s tr Hc. unfold contract_m in Hc. rewrite contract_m_along in Hc.
  set (fin := results_done) in *.
  set (P w ph em := winv_m fin w /\ rinv s w ph em /\ dinv_m fin s w ph em).
  assert (P_env : forall w ph em e, cstep_m fin w e = true -> P w ph em -> P (env_step w e) ph em).
  { intros w ph em e He (Hw & Hr & Hd).
    split; [now apply winv_m_env|]. split; [now apply rinv_env|now apply dinv_m_env]. }
  assert (P_poll : forall w ph em n, P w ph em ->
                   let '(ph', c) := reader_step fin s w ph n in P w ph' (em ++ c)).
  { intros w ph em n (Hw & Hr & Hd).
    pose proof (rinv_step fin s w ph em n Hr). pose proof (dinv_m_step fin s w ph em n Hw Hr Hd).
    now destruct (reader_step fin s w ph n). }
  destruct (run_from_invariant fin s _ P P_env P_poll tr world0 RWait [] Hc)
    as (cs & phf & E & Hw & [Hr _] & Hd).
  { split; [now apply winv_winv_m, winv0|]. split; [apply rinv0|apply dinv_m0]. }
  unfold results_run, results_run_with. fold fin. rewrite E. cbn [app] in *.
  fold (world_after tr) in *. fold (output_of tr) (target s (world_after tr)) in *.
  split; [apply is_prefix_spec; exact Hr|].
  intro Hf. destruct phf; try discriminate. destruct (Hd eq_refl) as (H1 & H2 & H3).
  repeat split; auto.
  intro Hlt. destruct (Hw H1) as [Hle _]. rewrite H2 in H3. unfold target, output_of, rlen in *.
  rewrite skipn_length in H3. lia.
Qed.

Lemma results_finished_m s tr :
  contract_m tr = true -> snd (results_run s tr) = true ->
  concat (fst (results_run s tr)) = skipn (N.to_nat s) (output_of tr) /\
  results_done (w_state (world_after tr)) = true.
Proof.
  intros Hc Hf. pose proof (results_exact_mirrored_thm s tr Hc) as H.
  destruct (results_run s tr) as [cs fin]. destruct H as [_ H]. destruct (H Hf) as (A & B & _). now split.
Qed.

Theorem results_final_mirrored_thm : forall start tr tr',
  contract_m (tr ++ tr') = true -> snd (results_run start tr) = true ->
  skipn (N.to_nat start) (output_of (tr ++ tr')) = skipn (N.to_nat start) (output_of tr) /\
  snd (results_run start (tr ++ tr')) = true /\
  fst (results_run start (tr ++ tr')) = fst (results_run start tr).
Proof.
  intros s tr tr' Hc Hf.
  assert (E : results_run s (tr ++ tr') = results_run s tr) by exact (results_run_done_stays _ s tr tr' Hf).
  split; [|now rewrite E].
  destruct (results_finished_m s (tr ++ tr') Hc) as [<- _]; [now rewrite E|].
  destruct (results_finished_m s tr) as [<- _]; [|exact Hf|now rewrite E].
  unfold contract_m in *. rewrite contract_m_along, along_app in Hc.
  rewrite contract_m_along. now apply andb_true_iff in Hc as [Hc _].
Qed.

Theorem results_exact_thm : forall start tr,
  contract tr = true ->
  let '(cs, fin) := results_run start tr in
  is_prefix (concat cs) (skipn (N.to_nat start) (output_of tr)) = true /\
  (fin = true ->
   concat cs = skipn (N.to_nat start) (output_of tr) /\
   results_done (w_state (world_after tr)) = true).
Proof.
  intros s tr Hc. pose proof (results_exact_mirrored_thm s tr (contract_contract_m tr Hc)) as H.
  destruct (results_run s tr) as [cs fin]. destruct H as [Hp He]. split; [exact Hp|].
  intro Hf. destruct (He Hf) as (H1 & H2 & _). now split.
Qed.

Lemma results_exact_env_only start tr tr0 :
  env_only tr = tr0 -> contract tr0 = true ->
  let '(cs, fin) := results_run start tr in
  is_prefix (concat cs) (skipn (N.to_nat start) (output_of tr0)) = true /\
  (fin = true ->
   concat cs = skipn (N.to_nat start) (output_of tr0) /\
   results_done (w_state (world_after tr0)) = true).
Proof.
  intros <- Hc. unfold contract in Hc. rewrite contract_env_only in Hc.
  unfold output_of, world_after. rewrite world_after_env_only. exact (results_exact_thm start tr Hc).
Qed.

Lemma cstep_frozen fin out w e :
  cstep fin w e = true -> w_output w = out /\ fin (w_state w) = true ->
  w_output (env_step w e) = out /\ fin (w_state (env_step w e)) = true.
Proof.
  intros Hc [Ho Hf]. rewrite env_step_output, env_step_state.
  destruct e as [|b|st sz|n]; simpl in *; rewrite ?app_nil_r; rewrite ?Hf in Hc;
    [now split|discriminate| |now split].
  (* a status after a finishing one is a finishing one *)
  destruct (fin st); [now split|discriminate].
Qed.

Theorem results_final_thm : forall start tr tr',
  contract (tr ++ tr') = true -> snd (results_run start tr) = true ->
  output_of (tr ++ tr') = output_of tr /\
  snd (results_run start (tr ++ tr')) = true /\
  fst (results_run start (tr ++ tr')) = fst (results_run start tr).
Proof.
  intros s tr tr' Hc Hf.
  destruct (results_final_mirrored_thm s tr tr' (contract_contract_m _ Hc) Hf) as [_ Hsame].
  split; [|exact Hsame].
  unfold contract in Hc. rewrite contract_along, along_app in Hc.
  apply andb_true_iff in Hc as [Hc1 Hc2]. rewrite <- contract_along in Hc1.
  destruct (results_finished_m s tr (contract_contract_m _ Hc1) Hf) as [_ Hd].
  unfold output_of. rewrite world_after_app.
  apply (along_invariant _ _ (cstep_frozen results_done (output_of tr)) tr' _ Hc2 (conj eq_refl Hd)).
Qed.

(* steps the reader of a done unit can still take: a read per byte left, and opening the file,
   the read that hits end-of-file and the status check *)
Definition measure (w : world) (ph : rphase) : nat :=
  let n := length (w_output w) in
  match ph with
  | RWait => n + 4
  | RRead pos => (n - N.to_nat pos) + 2
  | REof pos => if rlen (w_output w) <=? pos then 1 else (n - N.to_nat pos) + 3
  | RDone => 0
  end.

Lemma measure_bound w ph : (measure w ph <= length (w_output w) + 4)%nat.
Proof. destruct ph; simpl; try lia. destruct (rlen _ <=? pos); lia. Qed.

Lemma measure_0 w ph : measure w ph = 0%nat -> ph = RDone.
Proof. destruct ph; simpl; try lia; [destruct (rlen _ <=? pos); lia|reflexivity]. Qed.

Lemma slice_nil_eof f pos n : slice f pos (chunk n) = [] -> rlen f <= pos.
Proof.
  unfold slice, chunk, rlen. intro H. apply (f_equal (@length N)) in H.
  rewrite firstn_length, skipn_length in H. simpl in H.
  destruct (N.eqb_spec n 0); lia.
Qed.

Lemma slice_cons_lt f pos n x c : slice f pos n = x :: c -> pos < rlen f.
Proof.
  unfold slice, rlen. intro H. apply (f_equal (@length N)) in H.
  rewrite firstn_length, skipn_length in H. simpl in H. lia.
Qed.

Lemma poll_decreases d s w ph n :
  d (w_state w) = true -> w_size w <= rlen (w_output w) ->
  (measure w (fst (reader_step d s w ph n)) <= measure w ph - 1)%nat.
Proof.
  intros Hd Hsz. destruct ph as [|pos|pos|]; simpl.
  - destruct (w_file w); [|rewrite Hd]; simpl; lia.
  - destruct (slice (w_output w) pos (chunk n)) as [|x c] eqn:Es; simpl.
    + apply slice_nil_eof in Es. apply N.leb_le in Es. rewrite Es. lia.
    + apply slice_cons_lt in Es. unfold rlen in *. simpl. lia.
  - rewrite Hd. simpl.
    destruct (N.leb_spec (w_size w) pos); destruct (N.leb_spec (rlen (w_output w)) pos); simpl; lia.
  - lia.
Qed.

(* the property may depend on the number of polls that are left *)
Lemma polls_invariant d s w (Q : nat -> rphase -> Prop) :
  (forall k ph n, Q (S k) ph -> Q k (fst (reader_step d s w ph n))) ->
  forall polls ph, Q (length polls) ph -> Q 0%nat (snd (fst (run_from d s w ph (map EPoll polls)))).
Proof.
  intros Hstep. induction polls as [|n r IH]; intros ph Hq; [exact Hq|].
  simpl. specialize (Hstep _ ph n Hq). destruct (reader_step d s w ph n) as [ph' c].
  specialize (IH ph' Hstep). destruct (run_from d s w ph' (map EPoll r)) as [[cs phf] wf]. exact IH.
Qed.

Lemma polls_finish d s w polls ph :
  d (w_state w) = true -> w_size w <= rlen (w_output w) ->
  (measure w ph <= length polls)%nat ->
  snd (fst (run_from d s w ph (map EPoll polls))) = RDone.
Proof.
  intros Hd Hsz Hm. apply (measure_0 w).
  apply Nat.le_0_r, (polls_invariant d s w (fun k ph => measure w ph <= k)%nat); [|exact Hm].
  intros k ph' n H. pose proof (poll_decreases d s w ph' n Hd Hsz). lia.
Qed.

(* for either finish predicate: once the unit is done and the recorded size is not ahead of the
   output, the stream ends *)
Theorem results_terminates_any : forall d start tr polls,
  d (w_state (world_after tr)) = true ->
  w_size (world_after tr) <= rlen (output_of tr) ->
  (length (output_of tr) + 4 <= length polls)%nat ->
  snd (results_run_with d start (tr ++ map EPoll polls)) = true.
Proof.
  intros d s tr polls Hd Hsz Hl. unfold results_run_with. rewrite run_from_app.
  pose proof (run_from_world d s tr world0 RWait) as Hw.
  destruct (run_from d s world0 RWait tr) as [[cs ph] w]. simpl in Hw. subst w.
  pose proof (measure_bound (world_after tr) ph) as Hm.
  pose proof (polls_finish d s _ polls ph Hd Hsz ltac:(unfold output_of in Hl; lia)) as Hp.
  unfold world_after in Hp.
  destruct (run_from d s (fold_left env_step tr world0) ph (map EPoll polls)) as [[c2 ph2] w2].
  simpl in Hp. now subst ph2.
Qed.

Theorem results_terminates_mirrored_thm : forall start tr polls,
  results_done (w_state (world_after tr)) = true ->
  w_size (world_after tr) = rlen (output_of tr) ->
  (length (output_of tr) + 4 <= length polls)%nat ->
  snd (results_run start (tr ++ map EPoll polls)) = true.
Proof.
  intros s tr polls Hf Hsz Hl.
  apply results_terminates_any; [exact Hf|rewrite Hsz; apply N.le_refl|exact Hl].
Qed.

Theorem results_terminates_thm : forall start tr polls,
  contract tr = true ->
  results_done (w_state (world_after tr)) = true ->
  (length (output_of tr) + 4 <= length polls)%nat ->
  snd (results_run start (tr ++ map EPoll polls)) = true.
Proof.
  intros s tr polls Hc Hf Hl.
  exact (results_terminates_mirrored_thm s tr polls Hf (contract_winv tr Hc Hf) Hl).
Qed.

(* a trace that leaves the reader in a set of open phases which no step in the final world
   leads out of: the stream does not end, however long the client waits *)
Lemma results_never_end d s tr cs ph w (Q : rphase -> Prop) :
  run_from d s world0 RWait tr = (cs, ph, w) -> Q ph -> ~ Q RDone ->
  (forall ph n, Q ph -> Q (fst (reader_step d s w ph n))) ->
  forall polls, snd (results_run_with d s (tr ++ map EPoll polls)) = false.
Proof.
  intros E Hq Hn Hstep polls. unfold results_run_with. rewrite run_from_app, E.
  pose proof (polls_invariant d s w (fun _ => Q) (fun _ => Hstep) polls ph Hq) as H.
  destruct (run_from d s w ph (map EPoll polls)) as [[c2 ph2] w2]. simpl in *.
  destruct ph2; try reflexivity. contradiction.
Qed.

(* the pinned finish condition never lets the results of a cancelled unit end *)
Definition cancel_witness : list env_ev :=
  [ECreate; EAppend [104; 105]; ESetStatus ST_RUNNING 2; ESetStatus ST_CANCELED 2].

Theorem results_pinned_refuted_thm :
  contract cancel_witness = true /\
  w_state (world_after cancel_witness) = ST_CANCELED /\
  (forall polls, snd (results_run_pinned 0 (cancel_witness ++ map EPoll polls)) = false) /\
  (forall polls, (6 <= length polls)%nat ->
     snd (results_run 0 (cancel_witness ++ map EPoll polls)) = true).
Proof.
  split; [reflexivity|]. split; [reflexivity|]. split.
  - apply (results_never_end is_complete 0 cancel_witness [] RWait
             (mkWorld (Some [104; 105]) ST_CANCELED 2) (fun ph => ph <> RDone));
      [reflexivity|discriminate|auto|].
    (* IsComplete is false of Canceled, and no step ends on a unit that is not done *)
    intros ph n Hne H. now destruct (reader_finish_covers_thm _ _ _ _ _ Hne H).
  - intros polls Hl. apply results_terminates_thm; [reflexivity|reflexivity|exact Hl].
Qed.

(* a non-trivial producer satisfies the contract *)
Definition contract_example : list env_ev :=
  [ESetStatus ST_PENDING 0; ECreate; EPoll 65536; EAppend [1; 2; 3]; ESetStatus ST_RUNNING 2;
   EPoll 2; EAppend [4]; EPoll 0; ESetStatus ST_RUNNING 4; EAppend [5; 6]; EPoll 65536;
   ESetStatus ST_SUCCEEDED 6; EPoll 1; EPoll 1; EPoll 1; EPoll 1; EPoll 1].

(* on a local unit (producer's contract) it is the real reader ... *)
Lemma filesize_same_step fin s w ph n :
  winv fin w -> reader_step fin s (filesize_view w) ph n = reader_step fin s w ph n.
Proof.
  intro Hw. destruct ph as [|pos|pos|]; try reflexivity. simpl.
  destruct (fin (w_state w)) eqn:Ef; [|reflexivity]. now rewrite (Hw Ef).
Qed.

Lemma run_from_filesize_same fin s tr : forall w ph,
  along (cstep fin) w tr = true -> winv fin w ->
  run_from_filesize fin s w ph tr = run_from fin s w ph tr.
Proof.
  induction tr as [|e r IH]; intros w ph Hc Hw; [reflexivity|].
  simpl in Hc. apply andb_true_iff in Hc as [Hc1 Hc2].
  pose proof (winv_env fin w e Hc1 Hw) as Hw'.
  destruct e; cbn [run_from_filesize run_from]; try exact (IH _ ph Hc2 Hw').
  rewrite filesize_same_step by exact Hw.
  destruct (reader_step fin s w ph n) as [ph' c]. now rewrite (IH w ph' Hc2 Hw).
Qed.

(* ... on a mirrored unit it ends as soon as the record is final: 2 of 5 bytes *)
Definition early_end_witness : list env_ev :=
  [ECreate; ESetStatus ST_RUNNING 5; EAppend [1; 2]; ESetStatus ST_SUCCEEDED 5;
   EPoll 65536; EPoll 65536; EPoll 65536; EPoll 65536;
   EAppend [3; 4; 5];
   EPoll 65536; EPoll 65536; EPoll 65536; EPoll 65536].

Theorem results_filesize_refuted_thm :
  contract_m early_end_witness = true /\
  w_size (world_after early_end_witness) = 5 /\ output_of early_end_witness = [1; 2; 3; 4; 5] /\
  results_run_filesize 0 early_end_witness = ([[1; 2]], true) /\
  results_run 0 early_end_witness = ([[1; 2]; [3; 4; 5]], true) /\
  ~ (forall start tr, contract_m tr = true -> snd (results_run_filesize start tr) = true ->
       concat (fst (results_run_filesize start tr)) = skipn (N.to_nat start) (output_of tr)).
Proof.
  repeat split; try reflexivity.
  intro H. specialize (H 0 early_end_witness eq_refl eq_refl). vm_compute in H. discriminate H.
Qed.

(* [pat_cyc] is [pat] everywhere (Pattern.pat_cyc_spec); these are the stretches the harness asks for *)
Lemma pat_cyc_samples :
  forallb (fun ol => beq_bytes (pat_cyc (fst ol) (snd ol)) (pat (fst ol) (snd ol)))
          [(0, 1); (64255, 3); (250000, 70000); (1999000, 130000); (64256, 64256); (128511, 64258);
           (1734376, 265624); (0, 0); (64256, 0)] = true.
Proof. apply forallb_forall. intros ol _. rewrite pat_cyc_spec. apply beq_bytes_refl. Qed.

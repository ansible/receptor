(* Proofs/Route.v — soundness of the certificate checker [route_check] of Model/Route.v against
   the specification (weights of walks): a cost map and routing table accepted by the checker
   ARE the least costs and least-cost next hops; and next hops of nodes whose tables are all
   accepted for the same topology never loop. *)
From Coq Require Import Lia ZifyBool.
From Receptor Require Import Model.Route.
Open Scope N_scope.

Lemma sorted_from_lb {V} (m : amap V) : forall lo k v,
  sorted_from (Some lo) m = true -> In (k, v) m -> lo < k.
Proof.
  induction m as [|[k' v'] r IH]; intros lo k v Hs Hin; [destruct Hin|].
  simpl in Hs. apply andb_true_iff in Hs as [H1 H2].
  destruct Hin as [E|Hin]; [inversion E; subst; lia|].
  specialize (IH k' k v H2 Hin). lia.
Qed.

Lemma sorted_In_aget {V} (m : amap V) : forall lo k v,
  sorted_from lo m = true -> In (k, v) m -> aget k m = Some v.
Proof.
  induction m as [|[k' v'] r IH]; intros lo k v Hs Hin; [destruct Hin|].
  simpl in Hs. apply andb_true_iff in Hs as [_ Hs]. simpl.
  destruct Hin as [E|Hin].
  - inversion E; subst. now rewrite N.eqb_refl.
  - pose proof (sorted_from_lb r k' k v Hs Hin).
    destruct (N.eqb_spec k' k); [lia|]. eapply IH; eauto.
Qed.

Lemma fold_sadd_In (l : list node) : forall acc y,
  In y (fold_left (fun a x => sadd x a) l acc) <-> In y acc \/ In y l.
Proof.
  induction l as [|x r IH]; intros acc y; simpl; [tauto|].
  rewrite IH, sadd_In. split; intros H; intuition (subst; auto).
Qed.

Lemma key_In g v : is_key g v = true -> exists adj, In (v, adj) g.
Proof. intro H. apply amem_aget in H as [adj H]. exists adj. now apply aget_In. Qed.

Lemma key_In_keys g v : is_key g v = true -> In v (akeys g).
Proof. intro H. destruct (key_In g v H) as [adj Hin]. exact (in_map fst _ _ Hin). Qed.

Lemma graph_wf_sorted g : graph_wf g = true ->
  sorted_keys g = true /\ forall u adj, In (u, adj) g -> sorted_keys adj = true.
Proof.
  unfold graph_wf. rewrite andb_true_iff, forallb_forall. intros [Hg Ha].
  split; [exact Hg|]. intros u adj Hin. exact (Ha _ Hin).
Qed.

Lemma In_key g v adj : graph_wf g = true -> In (v, adj) g -> is_key g v = true.
Proof.
  intros Hwf Hin. apply amem_aget. exists adj.
  exact (sorted_In_aget g None v adj (proj1 (graph_wf_sorted g Hwf)) Hin).
Qed.

Lemma edge_inv g u v w : edge g u v = Some w ->
  exists adj, aget u g = Some adj /\ aget v adj = Some w /\ is_key g v = true.
Proof.
  unfold edge. destruct (aget u g) as [adj|]; [|discriminate].
  destruct (is_key g v); [|discriminate]. eauto.
Qed.

Lemma adj_In_edge g x adj y w : graph_wf g = true ->
  aget x g = Some adj -> In (y, w) adj -> is_key g y = true -> edge g x y = Some w.
Proof.
  intros Hwf Ha Hin Hk. unfold edge. rewrite Ha, Hk.
  exact (sorted_In_aget adj None y w (proj2 (graph_wf_sorted g Hwf) x adj (aget_In _ _ _ Ha)) Hin).
Qed.

Lemma edge_keys g u v w : edge g u v = Some w -> is_key g u = true /\ is_key g v = true.
Proof.
  intro H. destruct (edge_inv _ _ _ _ H) as [adj [Ha [_ Hk]]]. split; [|exact Hk].
  apply amem_aget. eauto.
Qed.

Lemma all_pos_adj_In adj v w : all_pos_adj adj = true -> In (v, w) adj -> 0 < w.
Proof.
  induction adj as [|[k c] r IH]; simpl; [tauto|].
  intros H [E|Hin]; apply andb_true_iff in H as [H1 H2]; [inversion E; subst; lia|auto].
Qed.

Lemma all_pos_In g u adj : all_pos g = true -> In (u, adj) g -> all_pos_adj adj = true.
Proof.
  induction g as [|[k a] r IH]; simpl; [tauto|].
  intros H [E|Hin]; apply andb_true_iff in H as [H1 H2]; [inversion E; subst; exact H1|auto].
Qed.

Lemma all_pos_positive g : all_pos g = true -> positive g.
Proof.
  intros Hp u v w He. destruct (edge_inv _ _ _ _ He) as [adj [Ha [Hw _]]].
  apply aget_In in Ha, Hw. eapply all_pos_adj_In; [eapply all_pos_In|]; eauto.
Qed.

Lemma walk_app g s u v c1 c2 : walk g s u c1 -> walk g u v c2 -> walk g s v (c1 + c2).
Proof.
  intros H1 H2. induction H2 as [|x y c w H2 IH He].
  - now rewrite N.add_0_r.
  - rewrite N.add_assoc. eapply walk_snoc; eauto.
Qed.

Lemma walk_edge g u v w : edge g u v = Some w -> walk g u v w.
Proof. intro H. rewrite <- (N.add_0_l w). eapply walk_snoc; [apply walk_nil|exact H]. Qed.

Lemma is_dist_unique g s v c1 c2 : is_dist g s v c1 -> is_dist g s v c2 -> c1 = c2.
Proof. intros [W1 M1] [W2 M2]. specialize (M1 _ W2). specialize (M2 _ W1). lia. Qed.

Lemma is_dist_tail g u h d w c2 :
  edge g u h = Some w -> walk g h d c2 -> is_dist g u d (w + c2) -> is_dist g h d c2.
Proof.
  intros He W [_ M]. split; [exact W|]. intros c' W'.
  specialize (M _ (walk_app _ _ _ _ _ _ (walk_edge _ _ _ _ He) W')). lia.
Qed.

(* what the boolean checker [costs_ok] establishes about a cost map *)
Record cert (g : graph) (self : node) (cs : costs) : Prop := {
  cert_self : is_key g self = true -> cost_of cs self = Some 0;
  cert_tight : forall v c, is_key g v = true -> v <> self -> cost_of cs v = Some c ->
                 exists p w cp, edge g p v = Some w /\ cost_of cs p = Some cp /\ cp + w = c;
  cert_edges : forall u v w cu, edge g u v = Some w -> cost_of cs u = Some cu ->
                 exists cv, cost_of cs v = Some cv /\ cv <= cu + w
}.

Lemma has_tight_pred_spec g0 cs v c : forall g,
  has_tight_pred g0 g cs v c = true ->
  exists p w cp, edge g0 p v = Some w /\ cost_of cs p = Some cp /\ cp + w = c.
Proof.
  induction g as [|[p adj] r IH]; simpl; [discriminate|].
  intro H. apply orb_true_iff in H as [H|H]; [|now apply IH].
  destruct (edge g0 p v) as [w|] eqn:E; [|discriminate].
  destruct (cost_of cs p) as [cp|] eqn:Ec; [|discriminate].
  exists p, w, cp. repeat split; auto. lia.
Qed.

Lemma edges_ok_spec g0 cs u cu : forall adj,
  edges_ok g0 cs u cu adj = true ->
  forall v w, In (v, w) adj -> is_key g0 v = true ->
  exists cv, cost_of cs v = Some cv /\ cv <= cu + w.
Proof.
  induction adj as [|[y wy] r IH]; simpl; intros H v w Hin Hk; [destruct Hin|].
  apply andb_true_iff in H as [H1 H2].
  destruct Hin as [E|Hin]; [|eapply IH; eauto].
  inversion E; subst. rewrite Hk in H1.
  destruct (cost_of cs v) as [cv|]; [|discriminate]. exists cv. split; [reflexivity|lia].
Qed.

Lemma costs_ok_cert g self cs : costs_ok g self cs = true -> cert g self cs.
Proof.
  unfold costs_ok. rewrite !andb_true_iff. intros [_ H]. rewrite forallb_forall in H.
  (* what is checked for the row (v, adj) of the graph *)
  assert (Hrow : forall v adj, In (v, adj) g ->
            match cost_of cs v with
            | Some c => (if v =? self then c =? 0 else has_tight_pred g g cs v c)
                        && edges_ok g cs v c adj
            | None => negb (v =? self)
            end = true) by (intros v adj Hin; exact (H _ Hin)).
  constructor.
  - intro Hk. destruct (key_In _ _ Hk) as [adj Hin]. specialize (Hrow _ _ Hin).
    rewrite N.eqb_refl in Hrow. destruct (cost_of cs self) as [c|]; [|discriminate].
    f_equal. lia.
  - intros v c Hk Hne Hc. destruct (key_In _ _ Hk) as [adj Hin]. specialize (Hrow _ _ Hin).
    rewrite Hc in Hrow. destruct (N.eqb_spec v self); [contradiction|].
    apply andb_true_iff in Hrow as [Ht _]. now apply has_tight_pred_spec in Ht.
  - intros u v w cu He Hc. destruct (edge_inv _ _ _ _ He) as [adj [Ha [Hw Hkv]]].
    specialize (Hrow _ _ (aget_In _ _ _ Ha)). rewrite Hc in Hrow.
    apply andb_true_iff in Hrow as [_ Ho].
    exact (edges_ok_spec _ _ _ _ _ Ho v w (aget_In _ _ _ Hw) Hkv).
Qed.

Section Sound.
Variables (g : graph) (self : node) (cs : costs).
Hypothesis Hpos : positive g.
Hypothesis Hcert : cert g self cs.

Lemma cost_lower_bound v c' : walk g self v c' -> is_key g v = true ->
  exists cv, cost_of cs v = Some cv /\ cv <= c'.
Proof.
  intro W. induction W as [|u v c w W IH He]; intro Hk.
  - exists 0. split; [now apply (cert_self _ _ _ Hcert)|lia].
  - destruct (IH (proj1 (edge_keys _ _ _ _ He))) as [cu [Hcu Hle]].
    destruct (cert_edges _ _ _ Hcert u v w cu He Hcu) as [cv [Hcv Hle2]].
    exists cv. split; [exact Hcv|lia].
Qed.

Lemma cost_is_walk : forall c v, is_key g v = true -> cost_of cs v = Some c -> walk g self v c.
Proof.
  (* follow tight predecessors: the cost falls at each step because weights are positive *)
  intro c. induction c as [c IH] using (well_founded_induction N.lt_wf_0). intros v Hk Hc.
  destruct (N.eq_dec v self) as [->|Hne].
  - rewrite (cert_self _ _ _ Hcert Hk) in Hc. injection Hc as <-. apply walk_nil.
  - destruct (cert_tight _ _ _ Hcert v c Hk Hne Hc) as [p [w [cp [He [Hcp <-]]]]].
    pose proof (Hpos _ _ _ He) as Hw.
    eapply walk_snoc; [|exact He]. apply IH; [lia|apply (edge_keys _ _ _ _ He)|exact Hcp].
Qed.

Theorem costs_sound v : is_key g v = true ->
  (forall c, cost_of cs v = Some c -> is_dist g self v c) /\
  (cost_of cs v = None -> unreachable g self v).
Proof.
  intro Hk. split.
  - intros c Hc. split; [now apply cost_is_walk|].
    intros c' W. destruct (cost_lower_bound v c' W Hk) as [cv [Hcv Hle]]. congruence.
  - intros Hn c W. destruct (cost_lower_bound v c W Hk) as [cv [Hcv _]]. congruence.
Qed.
End Sound.

(* h has cost ch, and some walk from h to x weighs exactly what the cost of x exceeds ch by *)
Definition tight_from (g : graph) (cs : costs) (h : node) (ch : N) (x : node) : Prop :=
  exists c2, walk g h x c2 /\ cost_of cs x = Some (ch + c2).

Lemma tight_from_refl g cs h ch : cost_of cs h = Some ch -> tight_from g cs h ch h.
Proof. intro H. exists 0. split; [apply walk_nil|]. now rewrite N.add_0_r. Qed.

Lemma tight_from_step g cs h ch x y w cx :
  tight_from g cs h ch x -> edge g x y = Some w ->
  cost_of cs x = Some cx -> cost_of cs y = Some (cx + w) -> tight_from g cs h ch y.
Proof.
  intros [c2 [W Hx]] He Hcx Hcy. exists (c2 + w). split; [eapply walk_snoc; eauto|].
  rewrite Hx in Hcx. injection Hcx as <-. now rewrite N.add_assoc.
Qed.

Section Hops.
Variables (g : graph) (self : node) (cs : costs).
Hypothesis Hwf : graph_wf g = true.

Lemma tight_succs_spec x y : In y (tight_succs g cs x) ->
  exists w cx, edge g x y = Some w /\ cost_of cs x = Some cx /\ cost_of cs y = Some (cx + w).
Proof.
  unfold tight_succs. destruct (aget x g) as [adj|] eqn:Ea; [|intros []].
  destruct (cost_of cs x) as [cx|] eqn:Ec; [|intros []].
  rewrite in_flat_map. intros [[y' w] [Hin Hy]]. cbn [fst snd] in Hy.
  destruct (cost_of cs y') as [cy|] eqn:Ey; [|destruct Hy].
  destruct (is_key g y' && (cx + w =? cy)) eqn:Eb; [|destruct Hy].
  destruct Hy as [<-|[]]. apply andb_true_iff in Eb as [Hk Heq].
  exists w, cx. repeat split; auto; [eapply adj_In_edge; eauto|]. rewrite Ey. f_equal. lia.
Qed.

Lemma tight_reach_sound h ch : forall fuel from d,
  (forall x, In x from -> tight_from g cs h ch x) ->
  tight_reach fuel g cs from d = true -> tight_from g cs h ch d.
Proof.
  induction fuel as [|f IH]; intros from d Hfrom H; simpl in H;
    (destruct (mem_N d from) eqn:Hm; [apply Hfrom; now apply mem_N_In|]); simpl in H.
  - discriminate.
  - eapply IH; [|exact H]. intros y Hy. apply fold_sadd_In in Hy as [Hy|Hy]; [now apply Hfrom|].
    apply in_flat_map in Hy as [x [Hx Hs]].
    destruct (tight_succs_spec _ _ Hs) as [w [cx [He [Hcx Hcy]]]].
    exact (tight_from_step _ _ _ _ _ _ _ _ (Hfrom x Hx) He Hcx Hcy).
Qed.

Lemma hop_ok_sound d h : hop_ok g self cs d h = true ->
  exists w, edge g self h = Some w /\ tight_from g cs h w d.
Proof.
  unfold hop_ok. destruct (edge g self h) as [w|]; [|discriminate].
  destruct (cost_of cs h) as [ch|] eqn:Ec; [|discriminate].
  intro H. apply andb_true_iff in H as [H1 H2]. apply N.eqb_eq in H1. subst ch.
  exists w. split; [reflexivity|]. apply (tight_reach_sound h w _ _ _) in H2; [exact H2|].
  intros x [<-|[]]. now apply tight_from_refl.
Qed.
End Hops.

(* The checker is sound (property C01, part A1; the claim is spelled out in Props/C01.v). *)
Theorem route_check_sound g self cs t :
  graph_wf g = true -> all_pos g = true -> route_check g self cs t = true ->
  forall d, is_key g d = true ->
    (forall c, cost_of cs d = Some c -> is_dist g self d c) /\
    (cost_of cs d = None -> unreachable g self d /\ aget d t = None) /\
    (forall h, aget d t = Some h ->
       d <> self /\
       exists w c2, edge g self h = Some w /\ walk g h d c2 /\ is_dist g self d (w + c2)) /\
    (aget d t = None -> d = self \/ unreachable g self d).
Proof.
  intros Hwf Hp H d Hk. unfold route_check in H. apply andb_true_iff in H as [Hc Ht].
  destruct (costs_sound g self cs (all_pos_positive g Hp) (costs_ok_cert _ _ _ Hc) d Hk) as [S1 S2].
  unfold table_ok in Ht. apply andb_true_iff in Ht as [Ht _]. rewrite forallb_forall in Ht.
  destruct (key_In _ _ Hk) as [adj Hin]. specialize (Ht _ Hin). cbn [fst] in Ht.
  split; [exact S1|]. split; [|split].
  - intro Hn. split; [now apply S2|]. rewrite Hn in Ht. destruct (aget d t); [discriminate|reflexivity].
  - intros h Hh. rewrite Hh in Ht. destruct (cost_of cs d) as [c|] eqn:Ecd; [|discriminate].
    apply andb_true_iff in Ht as [Hne Hhop]. split; [now apply N.eqb_neq, negb_true_iff|].
    destruct (hop_ok_sound g self cs Hwf d h Hhop) as [w [He [c2 [W Hcd]]]].
    exists w, c2. split; [exact He|]. split; [exact W|]. apply S1. congruence.
  - intro Hn. rewrite Hn in Ht. destruct (cost_of cs d) as [c|].
    + left. now apply N.eqb_eq.
    + right. now apply S2.
Qed.

Lemma table_keys g self cs t d h :
  route_check g self cs t = true -> aget d t = Some h -> is_key g d = true.
Proof.
  unfold route_check, table_ok. rewrite !andb_true_iff, !forallb_forall.
  intros [_ [_ H]] Hh. exact (H _ (aget_In _ _ _ Hh)).
Qed.

Section Accepted.
Variables (g : graph) (self : node) (cs : costs) (t : table).
Hypothesis Hwf : graph_wf g = true.
Hypothesis Hp : all_pos g = true.
Hypothesis Hc : route_check g self cs t = true.

Lemma dist_cost d c : is_key g d = true -> is_dist g self d c -> cost_of cs d = Some c.
Proof.
  intros Hk Hd. destruct (route_check_sound g self cs t Hwf Hp Hc d Hk) as [S1 [S2 _]].
  destruct (cost_of cs d) as [c'|].
  - f_equal. exact (is_dist_unique _ _ _ _ _ (S1 c' eq_refl) Hd).
  - exfalso. destruct Hd as [W _]. exact (proj1 (S2 eq_refl) c W).
Qed.

Lemma table_entry_dist d h : aget d t = Some h ->
  exists w c2, edge g self h = Some w /\ walk g h d c2 /\ is_dist g self d (w + c2).
Proof.
  intro Hh.
  destruct (route_check_sound g self cs t Hwf Hp Hc d (table_keys _ _ _ _ _ _ Hc Hh)) as [_ [_ [S3 _]]].
  exact (proj2 (S3 h Hh)).
Qed.

Lemma next_hop_closer :
  forall d c, is_key g d = true -> self <> d -> is_dist g self d c ->
  exists h w c2, aget d t = Some h /\ edge g self h = Some w /\ 0 < w /\
                 is_dist g h d c2 /\ c = w + c2.
Proof.
  intros d c Hk Hne Hd. destruct (aget d t) as [h|] eqn:Hh.
  - destruct (table_entry_dist d h Hh) as [w [c2 [He [W Hd']]]].
    exists h, w, c2. split; [reflexivity|]. split; [exact He|].
    split; [exact (all_pos_positive g Hp _ _ _ He)|].
    split; [exact (is_dist_tail _ _ _ _ _ _ He W Hd')|exact (is_dist_unique _ _ _ _ _ Hd Hd')].
  - exfalso. destruct (route_check_sound g self cs t Hwf Hp Hc d Hk) as [_ [_ [_ S4]]].
    destruct (S4 Hh) as [E|Hun]; [congruence|]. destruct Hd as [W _]. exact (Hun _ W).
Qed.
End Accepted.

Section Follow.
Variable t_of : node -> table.

(* following next hops from u towards d: the list of nodes visited after u; it can end only
   at d, so such a list is a complete path to d *)
Inductive follows (d : node) : node -> list node -> Prop :=
| follows_here : follows d d []
| follows_hop u h l : u <> d -> aget d (t_of u) = Some h -> follows d h l -> follows d u (h :: l).

Lemma follows_functional d u l1 : follows d u l1 -> forall l2, follows d u l2 -> l1 = l2.
Proof.
  intro H1. induction H1 as [|u h l Hne Hh _ IH]; intros l2 H2;
    inversion H2 as [|u' h' l' Hne' Hh' Hf']; subst; try congruence.
  rewrite Hh in Hh'. injection Hh' as <-. f_equal. now apply IH.
Qed.

(* Why next hops cannot loop: if every key other than d has a next hop that is a key strictly
   closer to d, then following next hops reaches d, and no node is met twice because each has
   one distance. *)
Section Descent.
Variables (g : graph) (d : node).
Hypothesis closer : forall u c, is_key g u = true -> u <> d -> is_dist g u d c ->
  exists h c2, aget d (t_of u) = Some h /\ is_key g h = true /\ is_dist g h d c2 /\ c2 < c.

Theorem follows_descends : forall c u, is_key g u = true -> is_dist g u d c ->
  exists l, follows d u l /\ NoDup (u :: l) /\
            forall x, In x l -> exists cx, is_dist g x d cx /\ cx < c.
Proof.
  intro c. induction c as [c IH] using (well_founded_induction N.lt_wf_0). intros u Hu Hd.
  destruct (N.eq_dec u d) as [->|Hne].
  - exists []. split; [constructor|]. split; [constructor; [intros []|constructor]|intros x []].
  - destruct (closer u c Hu Hne Hd) as [h [c2 [Hh [Hkh [Hd2 Hlt]]]]].
    destruct (IH c2 Hlt h Hkh Hd2) as [l [Hf [Hnd Hl]]].
    assert (Hl' : forall x, In x (h :: l) -> exists cx, is_dist g x d cx /\ cx < c).
    { intros x [<-|Hx]; [eauto|]. destruct (Hl x Hx) as [cx [Hcx Hlt']].
      exists cx. split; [exact Hcx|exact (N.lt_trans _ _ _ Hlt' Hlt)]. }
    exists (h :: l). split; [econstructor; eauto|]. split; [|exact Hl'].
    constructor; [|exact Hnd].
    (* u cannot reappear: everything after it is strictly closer to d *)
    intro Hin. destruct (Hl' u Hin) as [cx [Hcx Hlt']].
    rewrite (is_dist_unique _ _ _ _ _ Hd Hcx) in Hlt'. exact (N.lt_irrefl _ Hlt').
Qed.
End Descent.
End Follow.

(* every node has a table that the checker accepts for one and the same topology g *)
Section SameTopology.
Variable g : graph.
Variable cs_of : node -> costs.
Variable t_of : node -> table.
Hypothesis Hwf : graph_wf g = true.
Hypothesis Hp : all_pos g = true.
Hypothesis Hall : forall u, is_key g u = true -> route_check g u (cs_of u) (t_of u) = true.

(* Loop freedom: from every node u that can reach d, following the next hops of the (possibly
   differently tie-broken) tables reaches d without meeting a node twice, and every node met is
   strictly closer to d than u. *)
Theorem next_hops_loop_free c u d :
  is_key g u = true -> is_key g d = true -> is_dist g u d c ->
  exists l, follows t_of d u l /\ NoDup (u :: l) /\
            forall x, In x l -> exists cx, is_dist g x d cx /\ cx < c.
Proof.
  intros Hku Hkd. apply (follows_descends t_of g d); [|exact Hku].
  intros v cv Hkv Hne Hd.
  destruct (next_hop_closer g v _ _ Hwf Hp (Hall v Hkv) d cv Hkd Hne Hd)
    as [h [w [c2 [Hh [He [Hw [Hd2 ->]]]]]]].
  exists h, c2. split; [exact Hh|]. split; [apply (edge_keys _ _ _ _ He)|].
  split; [exact Hd2|now apply N.lt_add_pos_l].
Qed.
End SameTopology.

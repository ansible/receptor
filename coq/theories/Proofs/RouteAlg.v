(* Proofs/RouteAlg.v — the label-correcting loop of updateRoutingTable, for EVERY pop order:
   whenever the queue is empty the cost map passes the certificate conditions of Proofs/Route.v
   (hence equals the least costs), the prev-chain next hop is a least-cost next hop, and every
   execution is finite. *)
From Coq Require Import ZArith Lia.
From Coq Require Import Wellfounded.Lexicographic_Product Relations.Relation_Operators
  Wellfounded.Inclusion Wellfounded.Inverse_Image.
From Receptor Require Import Model.Route Proofs.Route.
Open Scope N_scope.

(* costs with None = infinity: a <= b, c < b, and a + w *)
Definition ole (a b : option N) : Prop :=
  match b with
  | None => True
  | Some y => match a with Some x => x <= y | None => False end
  end.
Definition olt (c : N) (b : option N) : Prop := match b with Some y => c < y | None => True end.
Definition oplus (a : option N) (w : N) : option N := option_map (fun x => x + w) a.

Lemma ole_refl a : ole a a.
Proof. destruct a; simpl; auto. lia. Qed.
Lemma ole_trans a b c : ole a b -> ole b c -> ole a c.
Proof. destruct a, b, c; simpl; try tauto; lia. Qed.
Lemma ole_antisym a b : ole a b -> ole b a -> a = b.
Proof. destruct a, b; simpl; try tauto; intros; f_equal; lia. Qed.
Lemma oplus_mono a b w : ole a b -> ole (oplus a w) (oplus b w).
Proof. destruct a, b; simpl; try tauto; lia. Qed.
Lemma olt_ole c b : olt c b -> ole (Some c) b.
Proof. destruct b; simpl; [apply N.lt_le_incl|auto]. Qed.

Lemma cost_of_aset_same cs v c : cost_of (aset v (Some c) cs) v = Some c.
Proof. unfold cost_of. now rewrite aget_aset_same. Qed.
Lemma cost_of_aset_other cs v x c : x <> v -> cost_of (aset v c cs) x = cost_of cs x.
Proof. intro H. unfold cost_of. now rewrite aget_aset_other. Qed.

Definition cst (st : rstate) (v : node) : option N := cost_of (r_cost st) v.
Definition queued (st : rstate) (v : node) : Prop := In v (r_queue st).

Definition dequeue (u : node) (st : rstate) : rstate :=
  {| r_cost := r_cost st; r_prev := r_prev st;
     r_queue := filter (fun x => negb (x =? u)) (r_queue st) |}.

Lemma dequeue_queued u st x : queued (dequeue u st) x <-> queued st x /\ x <> u.
Proof. unfold queued, dequeue. cbn [r_queue]. now rewrite filter_In, negb_true_iff, N.eqb_neq. Qed.

(* the body of `if pathCost < cost[neighbor]` in the Go loop; Q.Insert ignores a queued node *)
Definition improve (u : node) (c : N) (v : node) (st : rstate) : rstate :=
  {| r_cost := aset v (Some c) (r_cost st);
     r_prev := aset v u (r_prev st);
     r_queue := if mem_N v (r_queue st) then r_queue st else r_queue st ++ [v] |}.

Lemma improve_cst_same u c v st : cst (improve u c v st) v = Some c.
Proof. apply cost_of_aset_same. Qed.

Lemma improve_cst_other u c v st x : x <> v -> cst (improve u c v st) x = cst st x.
Proof. apply cost_of_aset_other. Qed.

Lemma improve_prev_same u c v st : aget v (r_prev (improve u c v st)) = Some u.
Proof. apply aget_aset_same. Qed.

Lemma improve_prev_other u c v st x : x <> v -> aget x (r_prev (improve u c v st)) = aget x (r_prev st).
Proof. apply aget_aset_other. Qed.

Lemma improve_le u c v st x : olt c (cst st v) -> ole (cst (improve u c v st) x) (cst st x).
Proof.
  intro Hlt. destruct (N.eq_dec x v) as [->|Hx]; [|rewrite improve_cst_other by exact Hx; apply ole_refl].
  rewrite improve_cst_same. now apply olt_ole.
Qed.

Lemma improve_queued u c v st x : queued (improve u c v st) x <-> queued st x \/ x = v.
Proof.
  unfold queued, improve. cbn [r_queue]. destruct (mem_N v (r_queue st)) eqn:E.
  - apply mem_N_In in E. split; [now left|]. now intros [H| ->].
  - rewrite in_app_iff. cbn [In]. intuition.
Qed.

Lemma init_cst g self v :
  cst (r_init g self) v = if is_key g v && (v =? self) then Some 0 else None.
Proof.
  unfold cst, cost_of, r_init, is_key, amem. cbn [r_cost].
  induction g as [|[k adj] r IH]; simpl; [reflexivity|].
  destruct (N.eqb_spec k v) as [->|_]; [|exact IH]. simpl. destruct (v =? self); reflexivity.
Qed.

Lemma improve_queue_len u c v st :
  (length (r_queue (improve u c v st)) <= S (length (r_queue st)))%nat.
Proof.
  cbn [improve r_queue]. destruct (mem_N v (r_queue st)); rewrite ?app_length; cbn [length]; lia.
Qed.

(* a self-loop cannot improve *)
Lemma improving_neq u cu v w st : cst st u = Some cu -> olt (cu + w) (cst st v) -> u <> v.
Proof. intros Hu Hlt ->. rewrite Hu in Hlt. simpl in Hlt. lia. Qed.

Section Alg.
Variables (g : graph) (self : node).
Hypothesis Hwf : graph_wf g = true.
Hypothesis Hpos : positive g.

Definition relax1 (u : node) (cu : N) (v : node) (w : N) (st : rstate) : rstate :=
  if is_key g v then
    if match cost_of (r_cost st) v with Some cv => cu + w <? cv | None => true end
    then improve u (cu + w) v st
    else st
  else st.

Lemma relax_edges_cons u cu v w r st :
  relax_edges g u cu ((v, w) :: r) st = relax_edges g u cu r (relax1 u cu v w st).
Proof. reflexivity. Qed.

Lemma pop_eq u st :
  pop g u st = match aget u g, cst st u with
               | Some adj, Some cu => relax_edges g u cu adj (dequeue u st)
               | _, _ => dequeue u st
               end.
Proof. reflexivity. Qed.

Lemma relax1_cases u cu v w st :
  relax1 u cu v w st = st /\ (is_key g v = true -> ole (cst st v) (Some (cu + w))) \/
  relax1 u cu v w st = improve u (cu + w) v st /\ is_key g v = true /\ olt (cu + w) (cst st v).
Proof.
  unfold relax1, cst. destruct (is_key g v); [|left; split; [reflexivity|discriminate]].
  destruct (cost_of (r_cost st) v) as [cv|]; [destruct (N.ltb_spec (cu + w) cv)|]; simpl; auto.
Qed.

Lemma relax1_keeps u cu v w st : cst st u = Some cu -> cst (relax1 u cu v w st) u = Some cu.
Proof.
  intro Hu. destruct (relax1_cases u cu v w st) as [[-> _]|[-> [_ Hlt]]]; [exact Hu|].
  now rewrite improve_cst_other by exact (improving_neq u cu v w st Hu Hlt).
Qed.

(* the invariant of the loop; [busy] is the node whose out-edges are being relaxed: it has left
   the queue, but its edges need not be satisfied before that is done.  A prev entry p of v
   records only cost p + w <= cost v: p may have improved since v was set.  It is tight once
   nobody is queued, because then [i_edges] gives the other inequality (terminal_tight). *)
Record Inv (busy : option node) (st : rstate) : Prop := {
  i_self : is_key g self = true -> cst st self = Some 0;
  i_reached : forall v, v <> self -> cst st v <> None -> aget v (r_prev st) <> None;
  i_prev : forall v p, aget v (r_prev st) = Some p ->
             cst st v <> None /\
             exists w, edge g p v = Some w /\ ole (oplus (cst st p) w) (cst st v);
  i_edges : forall u v w, ~ queued st u -> busy <> Some u -> edge g u v = Some w ->
              ole (cst st v) (oplus (cst st u) w)
}.

Lemma improve_inv u cu v w st :
  Inv (Some u) st -> cst st u = Some cu -> edge g u v = Some w -> olt (cu + w) (cst st v) ->
  Inv (Some u) (improve u (cu + w) v st).
Proof.
  intros Hi Hu He Hlt.
  pose proof (improving_neq u cu v w st Hu Hlt) as Huv.
  assert (Hsv : self <> v).
  { (* nothing improves on 0 *)
    intros <-. rewrite (i_self _ _ Hi (proj2 (edge_keys _ _ _ _ He))) in Hlt. simpl in Hlt. lia. }
  constructor.
  - intro Hk. rewrite improve_cst_other by exact Hsv. exact (i_self _ _ Hi Hk).
  - intros x Hxs Hx. destruct (N.eq_dec x v) as [->|Hxv]; [now rewrite improve_prev_same|].
    rewrite improve_prev_other by exact Hxv. rewrite improve_cst_other in Hx by exact Hxv.
    exact (i_reached _ _ Hi x Hxs Hx).
  - intros x p Hp. destruct (N.eq_dec x v) as [->|Hxv].
    + rewrite improve_prev_same in Hp. injection Hp as <-.
      rewrite improve_cst_same, improve_cst_other, Hu by exact Huv.
      split; [discriminate|]. exists w. split; [exact He|apply ole_refl].
    + rewrite improve_prev_other in Hp by exact Hxv. rewrite improve_cst_other by exact Hxv.
      destruct (i_prev _ _ Hi x p Hp) as [Hx [w' [He' Hle]]].
      split; [exact Hx|]. exists w'. split; [exact He'|].
      eapply ole_trans; [apply oplus_mono, improve_le, Hlt|exact Hle].
  - (* v is queued now; every other node's edges were satisfied, and costs only fell *)
    intros a b w' Hnq Hbusy He'.
    assert (Hav : a <> v) by (intros ->; apply Hnq, improve_queued; now right).
    rewrite (improve_cst_other _ _ _ _ a Hav). eapply ole_trans; [apply improve_le, Hlt|].
    apply (i_edges _ _ Hi); [|exact Hbusy|exact He'].
    intro Hq. apply Hnq, improve_queued. now left.
Qed.

Lemma relax_edges_le u cu x : forall adj st, ole (cst (relax_edges g u cu adj st) x) (cst st x).
Proof.
  induction adj as [|[v w] r IH]; intro st; [apply ole_refl|].
  rewrite relax_edges_cons. eapply ole_trans; [apply IH|].
  destruct (relax1_cases u cu v w st) as [[-> _]|[-> [_ Hlt]]]; [apply ole_refl|now apply improve_le].
Qed.

Lemma relax_edges_keeps u cu : forall adj st,
  cst st u = Some cu -> cst (relax_edges g u cu adj st) u = Some cu.
Proof.
  induction adj as [|[v w] r IH]; intros st Hu; [exact Hu|].
  rewrite relax_edges_cons. apply IH, relax1_keeps, Hu.
Qed.

Lemma relax_edges_done u cu : forall adj st v w, In (v, w) adj -> is_key g v = true ->
  ole (cst (relax_edges g u cu adj st) v) (Some (cu + w)).
Proof.
  induction adj as [|[v' w'] r IH]; intros st v w Hin Hk; [destruct Hin|].
  rewrite relax_edges_cons. destruct Hin as [[= -> ->]|Hin]; [|now apply IH].
  eapply ole_trans; [apply relax_edges_le|].
  destruct (relax1_cases u cu v w st) as [[-> H]|[-> _]]; [exact (H Hk)|].
  rewrite improve_cst_same. apply ole_refl.
Qed.

Lemma relax_edges_inv u cu : forall adj st,
  (forall v w, In (v, w) adj -> is_key g v = true -> edge g u v = Some w) ->
  Inv (Some u) st -> cst st u = Some cu -> Inv (Some u) (relax_edges g u cu adj st).
Proof.
  induction adj as [|[v w] r IH]; intros st Hadj Hi Hu; [exact Hi|].
  rewrite relax_edges_cons. apply IH.
  - intros v' w' Hin. apply Hadj. now right.
  - destruct (relax1_cases u cu v w st) as [[-> _]|[-> [Hk Hlt]]]; [exact Hi|].
    apply improve_inv; [exact Hi|exact Hu|apply Hadj; [now left|exact Hk]|exact Hlt].
  - apply relax1_keeps, Hu.
Qed.

(* a pop: u leaves the queue and is busy; once all its out-edges are satisfied it is not *)
Lemma inv_busy u st : Inv None st -> Inv (Some u) (dequeue u st).
Proof.
  intros [Hself Hreached Hprev Hedges]. constructor; auto.
  intros a b w Hnq Hb. apply Hedges; [|discriminate].
  intro Hq. apply Hnq, dequeue_queued. split; [exact Hq|congruence].
Qed.

Lemma inv_unbusy u st : Inv (Some u) st ->
  (forall v w, edge g u v = Some w -> ole (cst st v) (oplus (cst st u) w)) -> Inv None st.
Proof.
  intros [Hself Hreached Hprev Hedges] Hu. constructor; auto.
  intros a b w Hnq _ He. destruct (N.eq_dec a u) as [->|Hau]; [now apply Hu|].
  apply Hedges; [exact Hnq|congruence|exact He].
Qed.

Lemma pop_inv u st : Inv None st -> Inv None (pop g u st).
Proof.
  intro Hi. apply (inv_busy u) in Hi. rewrite pop_eq.
  destruct (aget u g) as [adj|] eqn:Ea.
  2:{ apply (inv_unbusy u _ Hi). intros v w He.
      destruct (edge_inv _ _ _ _ He) as [adj [Ha _]]. congruence. }
  destruct (cst st u) as [cu|] eqn:Ec.
  2:{ (* u is at infinity: its edges ask for nothing *)
      apply (inv_unbusy u _ Hi). intros v w _. change (cst (dequeue u st) u) with (cst st u).
      now rewrite Ec. }
  apply (inv_unbusy u).
  - apply relax_edges_inv; [|exact Hi|exact Ec]. intros v w. now apply adj_In_edge.
  - intros v w He. rewrite (relax_edges_keeps u cu adj (dequeue u st) Ec).
    destruct (edge_inv _ _ _ _ He) as [adj' [Ha [Hw Hk]]]. rewrite Ea in Ha. injection Ha as <-.
    apply relax_edges_done; [now apply aget_In|exact Hk].
Qed.

Lemma init_inv : Inv None (r_init g self).
Proof.
  constructor.
  - intro Hk. now rewrite init_cst, Hk, N.eqb_refl.
  - intros v Hne Hc. rewrite init_cst in Hc. destruct (N.eqb_spec v self); [contradiction|].
    now rewrite andb_false_r in Hc.
  - discriminate.
  - (* every node that has an edge is queued *)
    intros u v w Hnq _ He. exfalso. apply Hnq. right.
    exact (key_In_keys g u (proj1 (edge_keys _ _ _ _ He))).
Qed.

Lemma star_inv a b : relax_star g a b -> Inv None a -> Inv None b.
Proof.
  intro H. induction H as [|a b c Hab Hbc IH]; [auto|].
  intro Hi. apply IH. destruct Hab. now apply pop_inv.
Qed.

Section Terminal.
Variable st : rstate.
Hypothesis Hs : relax_star g (r_init g self) st.
Hypothesis Hq : r_queue st = [].

Lemma terminal_inv : Inv None st.
Proof. exact (star_inv _ _ Hs init_inv). Qed.

(* with nobody queued, every edge is satisfied ... *)
Lemma terminal_edges u v w : edge g u v = Some w -> ole (cst st v) (oplus (cst st u) w).
Proof.
  apply (i_edges _ _ terminal_inv); [|discriminate]. unfold queued. rewrite Hq. intros [].
Qed.

(* ... so the edge from the recorded predecessor is tight *)
Lemma terminal_tight x q : aget x (r_prev st) = Some q ->
  exists w cq, edge g q x = Some w /\ cst st q = Some cq /\ cst st x = Some (cq + w).
Proof.
  intro Hp. destruct (i_prev _ _ terminal_inv x q Hp) as [Hx [w [He Hle]]].
  pose proof (ole_antisym _ _ (terminal_edges q x w He) Hle) as E.
  destruct (cst st q) as [cq|]; [|contradiction]. exists w, cq. auto.
Qed.

(* The algorithm is correct for every pop order: whenever the queue is empty, the cost map
   satisfies the certificate conditions, hence (Proofs/Route.v) holds exactly the least costs *)
Theorem relax_terminal_cert : cert g self (r_cost st).
Proof.
  constructor.
  - exact (i_self _ _ terminal_inv).
  - intros v c Hk Hne Hc.
    assert (Hr : cst st v <> None) by (unfold cst; congruence).
    apply (i_reached _ _ terminal_inv v Hne) in Hr.
    destruct (aget v (r_prev st)) as [p|] eqn:Hp; [|contradiction].
    destruct (terminal_tight v p Hp) as [w [cp [He [Hcp Hcv]]]].
    exists p, w, cp. split; [exact He|]. split; [exact Hcp|]. unfold cst in Hcv. congruence.
  - intros u v w cu He Hcu. pose proof (terminal_edges u v w He) as H. unfold cst in H.
    rewrite Hcu in H. destruct (cost_of (r_cost st) v) as [cv|]; [|destruct H].
    exists cv. split; [reflexivity|exact H].
Qed.

Lemma hop_of_chain : forall fuel x h, hop_of fuel self (r_prev st) x = Some h ->
  aget h (r_prev st) = Some self /\
  forall ch, cst st h = Some ch -> tight_from g (r_cost st) h ch x.
Proof.
  induction fuel as [|f IH]; intros x h H; simpl in H;
    (destruct (aget x (r_prev st)) as [q|] eqn:Ep; [|discriminate]);
    (destruct (N.eqb_spec q self) as [->|Hqs];
       [injection H as <-; split; [exact Ep|]; intro ch; apply tight_from_refl|]).
  - discriminate.
  - destruct (IH q h H) as [Hh T]. split; [exact Hh|]. intros ch Hch.
    destruct (terminal_tight x q Ep) as [w [cq [He [Hcq Hcx]]]].
    exact (tight_from_step _ _ _ _ _ _ _ _ (T ch Hch) He Hcq Hcx).
Qed.

(* every entry of the table built from the prev-chains names a direct neighbour on a least-cost
   path, for every pop order *)
Theorem relax_terminal_table d h : In (d, h) (table_of g self st) ->
  is_key g d = true /\
  exists w c2, edge g self h = Some w /\ walk g h d c2 /\ is_dist g self d (w + c2).
Proof.
  unfold table_of. rewrite in_flat_map. intros [[k adj] [Hin Hd]]. cbn [fst] in Hd.
  destruct (hop_of (length g) self (r_prev st) k) as [h'|] eqn:Eh; [|destruct Hd].
  destruct Hd as [[= -> ->]|[]].
  pose proof (In_key g d adj Hwf Hin) as Hk. split; [exact Hk|].
  destruct (hop_of_chain _ _ _ Eh) as [Hh T].
  (* self has cost 0, so the cost of h is the weight of the edge it hangs on *)
  destruct (terminal_tight _ _ Hh) as [w [c0 [He [Hc0 Hch]]]].
  rewrite (i_self _ _ terminal_inv (proj1 (edge_keys _ _ _ _ He))) in Hc0. injection Hc0 as <-.
  destruct (T w Hch) as [c2 [W Hcd]].
  exists w, c2. split; [exact He|]. split; [exact W|].
  now apply (costs_sound g self _ Hpos relax_terminal_cert d Hk).
Qed.
End Terminal.

End Alg.

Lemma sorted_from_NoDup {V} (m : amap V) : forall lo, sorted_from lo m = true -> NoDup (akeys m).
Proof.
  induction m as [|[k v] r IH]; intros lo H; simpl; [constructor|].
  simpl in H. apply andb_true_iff in H as [_ H]. constructor; [|eapply IH; eauto].
  intro Hin. apply in_map_iff in Hin as [[k' v'] [E Hin]]. simpl in E. subst k'.
  pose proof (sorted_from_lb r k k v' H Hin). lia.
Qed.

(* The measure that falls at every pop is a pair, ordered lexicographically: the number of
   unreached keys; then twice the sum of the costs of the keys plus the length of the queue (an
   improvement lowers a cost by at least 1 and queues at most one node).  Both counts are sums,
   over the keys, of a function of the key's cost. *)
Fixpoint osum (f : option N -> N) (cs : costs) (l : list node) : N :=
  match l with [] => 0 | k :: r => f (cost_of cs k) + osum f cs r end.
Definition unreached (o : option N) : N := match o with None => 1 | Some _ => 0 end.
Definition value (o : option N) : N := match o with None => 0 | Some c => c end.

Definition phi (g : graph) (st : rstate) : N * N :=
  (osum unreached (r_cost st) (akeys g),
   2 * osum value (r_cost st) (akeys g) + N.of_nat (length (r_queue st))).

Definition plt (a b : N * N) : Prop := fst a < fst b \/ (fst a = fst b /\ snd a < snd b).

Lemma osum_other f cs v c l : ~ In v l -> osum f (aset v c cs) l = osum f cs l.
Proof.
  induction l as [|k r IH]; intro H; [reflexivity|]. cbn [osum].
  rewrite cost_of_aset_other by (intros ->; apply H; now left).
  rewrite IH; [reflexivity|]. intro; apply H; now right.
Qed.

Lemma osum_update f cs v c l : NoDup l -> In v l ->
  osum f (aset v (Some c) cs) l + f (cost_of cs v) = osum f cs l + f (Some c).
Proof.
  induction l as [|k r IH]; intros Hnd Hin; [destruct Hin|].
  inversion Hnd as [|? ? Hnk Hnd']; subst. cbn [osum].
  destruct (N.eq_dec k v) as [->|Hkv].
  - rewrite cost_of_aset_same, osum_other by assumption. lia.
  - destruct Hin as [E|Hin]; [contradiction|].
    rewrite cost_of_aset_other by exact Hkv. specialize (IH Hnd' Hin). lia.
Qed.

Lemma filter_length_le {A} (f : A -> bool) l : (length (filter f l) <= length l)%nat.
Proof. induction l as [|y r IH]; [reflexivity|]. cbn [filter]. destruct (f y); cbn [length]; lia. Qed.

Lemma filter_remove_lt (u : N) l :
  In u l -> (length (filter (fun x => negb (N.eqb x u)) l) < length l)%nat.
Proof.
  induction l as [|y r IH]; [intros []|]. intro Hin. cbn [filter].
  destruct (N.eqb_spec y u) as [->|Hne]; cbn [negb length].
  - apply Nat.lt_succ_r, filter_length_le.
  - destruct Hin as [E|Hin]; [contradiction|]. specialize (IH Hin). lia.
Qed.

Section Termination.
Variable g : graph.
Hypothesis Hwf : graph_wf g = true.

Lemma keys_NoDup : NoDup (akeys g).
Proof. exact (sorted_from_NoDup g None (proj1 (graph_wf_sorted g Hwf))). Qed.

Lemma plt_wf : well_founded plt.
Proof.
  apply (wf_incl _ _ (slexprod N N N.lt N.lt)).
  - intros [a1 a2] [b1 b2] [H|[H1 H2]]; simpl in *; [now apply left_slex|subst; now apply right_slex].
  - apply wf_slexprod; apply N.lt_wf_0.
Qed.

Lemma plt_trans a b c : plt a b -> plt b c -> plt a c.
Proof. unfold plt. lia. Qed.

Lemma improve_phi u c v st : is_key g v = true -> olt c (cst st v) ->
  plt (phi g (improve u c v st)) (phi g st).
Proof.
  intros Hk Hlt. pose proof (key_In_keys g v Hk) as Hin.
  pose proof (osum_update unreached (r_cost st) v c (akeys g) keys_NoDup Hin) as Hn.
  pose proof (osum_update value (r_cost st) v c (akeys g) keys_NoDup Hin) as Ht.
  pose proof (improve_queue_len u c v st) as Hlen.
  unfold plt, phi. cbn [fst snd]. change (r_cost (improve u c v st)) with (aset v (Some c) (r_cost st)).
  unfold cst in Hlt. destruct (cost_of (r_cost st) v) as [cv|]; cbn [unreached value olt] in Hn, Ht, Hlt.
  - right. lia.
  - left. lia.
Qed.

(* relaxing edges never raises the measure: it stays below whatever it was below *)
Lemma relax_edges_phi u cu m : forall adj st,
  plt (phi g st) m -> plt (phi g (relax_edges g u cu adj st)) m.
Proof.
  induction adj as [|[v w] r IH]; intros st H; [exact H|].
  rewrite relax_edges_cons. apply IH.
  destruct (relax1_cases g u cu v w st) as [[-> _]|[-> [Hk Hlt]]]; [exact H|].
  exact (plt_trans _ _ _ (improve_phi u _ v st Hk Hlt) H).
Qed.

Lemma pop_phi u st : In u (r_queue st) -> plt (phi g (pop g u st)) (phi g st).
Proof.
  intro Hin.
  assert (H0 : plt (phi g (dequeue u st)) (phi g st)).
  { right. split; [reflexivity|]. pose proof (filter_remove_lt u (r_queue st) Hin).
    (* [node] is unfolded so that [length] over [list node] and over [list N] is one atom for lia *)
    unfold phi, dequeue, node in *. cbn [snd r_cost r_queue]. lia. }
  rewrite pop_eq. destruct (aget u g) as [adj|]; [|exact H0].
  destruct (cst st u) as [cu|]; [|exact H0].
  now apply relax_edges_phi.
Qed.

(* The rebuild terminates: the relation "b is obtained from a by popping some queued node" is
   well-founded — there is no infinite execution, for any pop order, from any state *)
Theorem rebuild_terminates : well_founded (fun b a => relax g a b).
Proof.
  apply (wf_incl _ _ (fun b a => plt (phi g b) (phi g a))).
  - intros b a H. inversion H; subst. now apply pop_phi.
  - apply (wf_inverse_image _ _ plt (phi g)). exact plt_wf.
Qed.
End Termination.

Lemma run_head_star g : forall fuel st st',
  run_head fuel g st = Some st' -> relax_star g st st' /\ r_queue st' = [].
Proof.
  induction fuel as [|f IH]; intros st st' H; simpl in H.
  - destruct (r_queue st) eqn:E; [inversion H; subst; split; [constructor|exact E]|discriminate].
  - destruct (r_queue st) as [|u q] eqn:E; [inversion H; subst; split; [constructor|exact E]|].
    destruct (IH _ _ H) as [Hs Hq]. split; [|exact Hq].
    eapply rs_step; [|exact Hs]. constructor. rewrite E. now left.
Qed.

(* the cycle 1-2-3-4 with unit weights except 5 between 1 and 4, seen from self = 1; key 9 has
   a one-way edge to 1 and cannot be reached *)
Definition ex_g : graph :=
  [(1, [(2, 1); (4, 5)]); (2, [(1, 1); (3, 1)]); (3, [(2, 1); (4, 1)]); (4, [(1, 5); (3, 1)]); (9, [(1, 1)])].

Example ex_route :
  exists st, run_head 20 ex_g (r_init ex_g 1) = Some st /\
             r_cost st = [(1, Some 0); (2, Some 1); (3, Some 2); (4, Some 3); (9, None)] /\
             table_of ex_g 1 st = [(2, 2); (3, 2); (4, 2)] /\
             route_check ex_g 1 (r_cost st) (table_of ex_g 1 st) = true.
Proof.
  (* the run determines st; evaluating the rest before st is known would unfold the checker
     around a hole, which is slow to check *)
  eexists. split; [vm_compute; reflexivity|]. vm_compute. repeat split.
Qed.

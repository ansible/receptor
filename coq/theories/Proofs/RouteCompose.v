(* Proofs/RouteCompose.v — C01: putting the layers together.  If every node's known graph agrees
   with the real topology on everything the node can reach (Proofs/RouteWorld.v: that is what the
   clean phase converges to; stale entries about unreachable nodes are harmless) and every node's
   table passes the certificate check for its OWN known graph (that is what `./check C01` finds
   of the real node's output; Proofs/RouteAlg.v proves the algorithm's costs and table entries
   right, not that the checker accepts them), then in the REAL topology every table holds
   exactly the reachable nodes with least costs and least-cost next hops, and following next
   hops never loops. *)
From Receptor Require Import Model.Route Model.RouteWorld Proofs.Route.
Open Scope N_scope.

Section Compose.
Variable tp : topo.

(* g tells the truth about every node reachable from a *)
Definition agrees (a : node) (g : graph) : Prop := forall o, treach tp a o -> aget o g = Some (tp o).

Lemma treach_trans a b c : treach tp a b -> treach tp b c -> treach tp a c.
Proof. intros H1 H2. induction H2; [exact H1|]. eapply tr_step; eauto. Qed.

Lemma agrees_mono a b g : agrees a g -> treach tp a b -> agrees b g.
Proof. intros H Hab o Ho. apply H. eapply treach_trans; eauto. Qed.

Lemma agrees_key a g d : agrees a g -> treach tp a d -> is_key g d = true.
Proof. intros H Hr. apply amem_aget. exists (tp d). exact (H d Hr). Qed.

Lemma edge_transfer g1 g2 a u b w : agrees a g1 -> agrees a g2 -> treach tp a u ->
  edge g1 u b = Some w -> edge g2 u b = Some w /\ treach tp a b.
Proof.
  intros H1 H2 Hu He. destruct (edge_inv _ _ _ _ He) as [adj [Ha [Hw _]]].
  rewrite (H1 u Hu) in Ha. injection Ha as <-.
  assert (Hb : treach tp a b) by (apply (tr_step tp a u b Hu), amem_aget; eauto).
  split; [|exact Hb]. unfold edge. now rewrite (H2 u Hu), (agrees_key a g2 b H2 Hb).
Qed.

Lemma walk_transfer g1 g2 a : agrees a g1 -> agrees a g2 ->
  forall d c, walk g1 a d c -> walk g2 a d c /\ treach tp a d.
Proof.
  intros H1 H2 d c W. induction W as [|u b c w W [IHw IHr] He]; [split; constructor|].
  destruct (edge_transfer g1 g2 a u b w H1 H2 IHr He) as [He2 Hb].
  split; [eapply walk_snoc; eauto|exact Hb].
Qed.

Lemma is_dist_transfer g1 g2 a d c : agrees a g1 -> agrees a g2 ->
  is_dist g1 a d c -> is_dist g2 a d c.
Proof.
  intros H1 H2 [W M]. split; [apply (walk_transfer g1 g2 a H1 H2 d c W)|].
  intros c' W'. apply M. apply (walk_transfer g2 g1 a H2 H1 d c' W').
Qed.

(* the real topology as a graph G, and every node's own view *)
Variable G : graph.
Variable kg_of : node -> graph.
Variable cs_of : node -> costs.
Variable t_of : node -> table.
Hypothesis HG : forall a, is_key G a = true -> agrees a G.
Hypothesis Hkg : forall u, is_key G u = true ->
  agrees u (kg_of u) /\ graph_wf (kg_of u) = true /\ all_pos (kg_of u) = true /\
  route_check (kg_of u) u (cs_of u) (t_of u) = true.

Lemma dist_known u d c : is_key G u = true -> is_dist G u d c ->
  is_key (kg_of u) d = true /\ is_dist (kg_of u) u d c.
Proof.
  intros Hu Hd. destruct (Hkg u Hu) as [Ha _]. pose proof (HG u Hu) as HaG.
  split; [|exact (is_dist_transfer G (kg_of u) u d c HaG Ha Hd)].
  apply (agrees_key u); [exact Ha|]. destruct Hd as [W _].
  apply (walk_transfer G (kg_of u) u HaG Ha d c W).
Qed.

(* one hop in the REAL topology: the table of u names a neighbour strictly closer to d *)
Theorem real_next_hop_closer u d c : is_key G u = true -> u <> d -> is_dist G u d c ->
  exists h w c2, aget d (t_of u) = Some h /\ edge G u h = Some w /\ 0 < w /\
                 is_dist G h d c2 /\ c = w + c2 /\ is_key G h = true.
Proof.
  intros Hu Hne Hd. destruct (Hkg u Hu) as [Ha [Hwf [Hp Hc]]]. pose proof (HG u Hu) as HaG.
  destruct (dist_known u d c Hu Hd) as [Hkd Hdk].
  destruct (next_hop_closer (kg_of u) u _ _ Hwf Hp Hc d c Hkd Hne Hdk)
    as [h [w [c2 [Hh [He [Hw [Hd2 Hcc]]]]]]].
  (* the edge to h, and the least-cost walks from h, are those of the real topology *)
  destruct (edge_transfer (kg_of u) G u u h w Ha HaG (tr_refl _ _) He) as [HeG Hrh].
  pose proof (agrees_key u G h HaG Hrh) as Hkh.
  exists h, w, c2. split; [exact Hh|]. split; [exact HeG|]. split; [exact Hw|].
  split; [|split; [exact Hcc|exact Hkh]].
  exact (is_dist_transfer (kg_of u) G h d c2 (agrees_mono u h _ Ha Hrh) (HG h Hkh) Hd2).
Qed.

(* exactly the reachable nodes, with the least cost of the real topology *)
Theorem real_table_exact u d : is_key G u = true -> is_key G d = true -> d <> u ->
  (aget d (t_of u) <> None <-> exists c, is_dist G u d c) /\
  (forall c, is_dist G u d c -> cost_of (cs_of u) d = Some c).
Proof.
  intros Hu _ Hne. destruct (Hkg u Hu) as [Ha [Hwf [Hp Hc]]]. split; [split|].
  - (* an entry exists: d is a key of the known graph with a certified hop *)
    intro Hn. destruct (aget d (t_of u)) as [h|] eqn:Eh; [|congruence].
    destruct (table_entry_dist (kg_of u) u _ _ Hwf Hp Hc d h Eh) as [w [c2 [_ [_ Hd]]]].
    exists (w + c2).
    exact (is_dist_transfer (kg_of u) G u d _ Ha (HG u Hu) Hd).
  - intros [c Hd] Hn.
    destruct (real_next_hop_closer u d c Hu ltac:(congruence) Hd) as [h [_ [_ [Hh _]]]]. congruence.
  - intros c Hd. destruct (dist_known u d c Hu Hd) as [Hkd Hdk].
    exact (dist_cost (kg_of u) u _ _ Hwf Hp Hc d c Hkd Hdk).
Qed.
End Compose.

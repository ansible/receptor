(* Proofs/RouteLink.v — own row = connections under every history of link events, including session
   teardowns that end late; refuted for a deferred clean-up that forgets the peer's costs again. *)
From Coq Require Import NArith List.
From Receptor Require Import Base.ListFacts Model.RouteLink.
Import ListNotations.
Open Scope N_scope.

Lemma own_row_is_connections_step : forall s e, l_own s = l_conns s -> l_own (lstep false s e) = l_conns (lstep false s e).
Proof.
  intros s e H. destruct e as [p c|p|p]; simpl.
  - destruct (lhas p (l_conns s)); simpl; [exact H | now rewrite H].
  - now rewrite H.
  - exact H.
Qed.

Lemma own_row_is_connections : forall h s, l_own s = l_conns s ->
  l_own (lrun false s h) = l_conns (lrun false s h).
Proof.
  intro h. apply (fold_left_invariant _ (fun s => l_own s = l_conns s)).
  intros e s _. apply own_row_is_connections_step.
Qed.

(* a late "forget the costs once more": connected to peer 1, own row empty - no route over the link *)
Lemma late_forget_refuted :
  let s := lrun true l0 slow_close_history in l_conns s = [(1, 2)] /\ l_own s = [].
Proof. vm_compute. split; reflexivity. Qed.

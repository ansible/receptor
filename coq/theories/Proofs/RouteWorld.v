(* Proofs/RouteWorld.v — C01 layer 3: in the clean phase the known graph converges to the
   real topology, for every interleaving of ticks and deliveries. *)
From Coq Require Import Lia.
From Receptor Require Import Model.RouteWorld Proofs.Flood Proofs.Mesh.
Open Scope N_scope.

Lemma lex_le_false_lt a b : lex_le a b = false -> lex_lt b a = true.
Proof. rewrite <- not_true_iff_false, lex_le_spec, lex_lt_spec. lia. Qed.
Lemma lex_le_trans' a b c : lex_le a b = true -> lex_le b c = true -> lex_le a c = true.
Proof. apply lex_le_trans. Qed.

(* one node handling u, received from x, when u tells the truth (adjo: its origin's adjacency) *)
Record dfacts (st : nstate) (u : upd) (x : node) (adjo : amap N) (st' : nstate) (acts : list action) : Prop := {
  df_self : ns_self st' = ns_self st;
  df_conns : ns_conns st' = ns_conns st;
  df_epoch : ns_epoch st' = ns_epoch st;
  df_seen : ns_seen st' = ns_seen st \/ ns_seen st' = sadd (u_id u) (ns_seen st);
  df_relays_only : forall c u', In (Relay c u') acts ->
                     u' = with_fwd (ns_self st) u /\ In c (ns_conns st) /\ c <> x;
  df_cases :
    (ns_info st' = ns_info st /\ ns_known st' = ns_known st /\
     (u_origin u <> ns_self st ->
      pair_le (Some (pair_of u)) (aget (u_origin u) (ns_info st)) = true))
    \/
    (ns_info st' = aset (u_origin u) (pair_of u) (ns_info st) /\
     pair_le (Some (pair_of u)) (aget (u_origin u) (ns_info st)) = false /\
     taken_over (ns_self st) (u_origin u) adjo (ns_known st) (ns_known st') /\
     (forall c, In c (ns_conns st) -> c <> x -> In (Relay c (with_fwd (ns_self st) u)) acts))
}.

(* the update is ignored: at most its ID is noted *)
Lemma dfacts_ignored st u x adjo st' :
  ns_self st' = ns_self st -> ns_conns st' = ns_conns st -> ns_epoch st' = ns_epoch st ->
  ns_info st' = ns_info st -> ns_known st' = ns_known st ->
  ns_seen st' = ns_seen st \/ ns_seen st' = sadd (u_id u) (ns_seen st) ->
  (u_origin u <> ns_self st -> pair_le (Some (pair_of u)) (aget (u_origin u) (ns_info st)) = true) ->
  dfacts st u x adjo st' [].
Proof. intros. constructor; auto. intros c u' []. Qed.

(* Of the six outcomes of [handle_update] a true update leaves three: ignored (seen before, or
   come back to its origin, whose epoch it carries), stale, accepted. *)
Lemma deliver_facts st u x adjo :
  u_origin u <> 0 -> u_conns u = Some adjo -> u_susp u = 0 -> conns_pos (u_conns u) = true ->
  amem (u_origin u) adjo = false ->
  (u_origin u = ns_self st -> u_epoch u = ns_epoch st) ->
  (u_origin u <> ns_self st -> mem_N (u_id u) (ns_seen st) = true ->
     pair_le (Some (pair_of u)) (aget (u_origin u) (ns_info st)) = true) ->
  dfacts st u x adjo (fst (handle_update st u x)) (snd (handle_update st u x)).
Proof.
  intros H0 Hc Hs Hp Hnl Hown Hsi.
  destruct (handle_update_cases st u x) as [Hi|Ho Hne _|Ho Hlt|_ _ Hn|_ _ _ Hst|_ _ _ Hnew]; cbn [fst snd].
  - (* ignored, state and all: unless it is the origin itself, the node has seen the ID *)
    apply dfacts_ignored; auto. intro Hf.
    destruct Hi as [Hi|[Hi|[[Hi _]|[_ Hi]]]]; [congruence..|auto].
  - (* shutdown notice and *) contradiction (Hne (Hown Ho)).
  - (* newer own epoch: both need a foreign epoch *) rewrite (Hown Ho) in Hlt. lia.
  - (* notice *) contradiction.
  - (* stale: only the ID is noted; [Hst] is the last premise up to unfolding [pair_of], [info_of] *)
    apply dfacts_ignored; auto.
  - (* accepted *)
    constructor; cbn [processed ns_self ns_conns ns_epoch ns_seen ns_info ns_known set_state]; auto.
    + intros c u' Hin. now apply relay_after_requests, in_relays in Hin.
    + right. split; [reflexivity|]. split; [exact Hnew|]. split; [now apply learned_taken_over|].
      intros c Hin Hne. now apply relay_after_requests, in_relays.
Qed.

Lemma in_relay_msgs self acts m :
  In m (relay_msgs self acts) <->
  exists c u', In (Relay c u') acts /\ m = {| m_from := self; m_to := c; m_upd := u' |}.
Proof.
  unfold relay_msgs. rewrite in_flat_map. split.
  - intros [a [Ha Hm]]. destruct a; simpl in Hm; try tauto. destruct Hm as [<-|[]]. eauto.
  - intros [c [u' [Ha ->]]]. exists (Relay c u'). split; [exact Ha|]. simpl. now left.
Qed.

(* after node st = (m_to m) has handled the k-th message in flight, m *)
Definition rdelivered (w : world) (k : nat) (m : msg) (st st' : nstate) (acts : list action) : world :=
  {| w_nodes := update_nth (N.to_nat (m_to m)) st' (w_nodes w);
     w_flight := remove_nth k (w_flight w) ++ relay_msgs (ns_self st) acts |}.

Section Clean.
Variable tp : topo.

(* The clean world.  Besides the mesh and the truth of what is in flight: an update of o in
   flight carries o's current epoch (so o itself ignores it); equal IDs mean equal origin and pair;
   and a node that has seen the ID of an update in flight already stores at least its pair (so
   "ID seen: ignored" loses nothing).  The last two are what [deliver_facts] asks for. *)
Record CI (w : world) : Prop := {
  ci_mesh : mesh_ok tp w;
  ci_true : forall m, In m (w_flight w) -> true_upd tp (m_upd m);
  ci_epoch : forall m st, In m (w_flight w) -> rnode_at w (u_origin (m_upd m)) = Some st ->
               ns_epoch st = u_epoch (m_upd m);
  ci_ids : forall m1 m2, In m1 (w_flight w) -> In m2 (w_flight w) ->
             u_id (m_upd m1) = u_id (m_upd m2) ->
             u_origin (m_upd m1) = u_origin (m_upd m2) /\ pair_of (m_upd m1) = pair_of (m_upd m2);
  ci_seen : forall m v st, In m (w_flight w) -> rnode_at w v = Some st -> v <> u_origin (m_upd m) ->
              mem_N (u_id (m_upd m)) (ns_seen st) = true ->
              exists p, aget (u_origin (m_upd m)) (ns_info st) = Some p /\
                        lex_le (pair_of (m_upd m)) p = true
}.

(* the news of the flooding argument: "o's update with pair P or a later one" *)
Definition info_at (w : world) (o v : node) : option (N * N) :=
  match rnode_at w v with Some st => aget o (ns_info st) | None => None end.
Definition hasP (w : world) (o : node) (P : N * N) (v : node) : Prop :=
  v = o \/ pair_le (Some P) (info_at w o v) = true.
Definition carries (o : node) (P : N * N) (m : msg) : Prop :=
  u_origin (m_upd m) = o /\ lex_le P (pair_of (m_upd m)) = true.

(* The invariant of one origin o and one of its pairs P.  K: who sent the news has it; J: flooding
   (Proofs/Mesh.v) over the real topology; G: who has it holds o's true adjacency. *)
Record PO (o : node) (P : N * N) (w : world) : Prop := {
  po_K : forall m, In m (w_flight w) -> carries o P m -> hasP w o P (m_from m);
  po_J : passed_on msg m_from m_to (fun v c => amem c (tp v) = true) (carries o P)
           (hasP w o P) (w_flight w);
  po_G : forall v st, rnode_at w v = Some st -> v <> o ->
           pair_le (Some P) (aget o (ns_info st)) = true -> aget o (ns_known st) = Some (tp o)
}.

Lemma hasP_dec w o P v : hasP w o P v \/ ~ hasP w o P v.
Proof.
  unfold hasP. destruct (N.eq_dec v o); [auto|].
  destruct (pair_le (Some P) (info_at w o v)); [auto|right; intros [|]; congruence].
Qed.

(* a message addressed to nobody is dropped; it was no witness of J, whose witnesses go to
   neighbours in the real topology, which exist *)
Lemma dropped_preserves w k m :
  CI w -> nth_error (w_flight w) k = Some m -> rnode_at w (m_to m) = None ->
  let w' := {| w_nodes := w_nodes w; w_flight := remove_nth k (w_flight w) |} in
  CI w' /\ forall o P, PO o P w -> PO o P w'.
Proof.
  intros [Cm Ct Ce Ci Cs] Em Ev w'.
  assert (Hrest : forall x, In x (w_flight w') -> In x (w_flight w)) by (intro; apply remove_nth_In).
  split.
  - constructor.
    + destruct Cm. now constructor.
    + intros m' H. exact (Ct m' (Hrest _ H)).
    + intros m' st H. exact (Ce m' st (Hrest _ H)).
    + intros m1 m2 H1 H2. exact (Ci m1 m2 (Hrest _ H1) (Hrest _ H2)).
    + intros m' v st H. exact (Cs m' v st (Hrest _ H)).
  - intros o P [K J G]. constructor.
    + intros m' H. exact (K m' (Hrest _ H)).
    + intros v c E Hv. destruct (J v c E Hv) as [H|(m0 & Hin & Hf & Ht & Hg)]; [now left|].
      destruct (in_remove_nth _ _ _ _ Em Hin) as [->|Hin']; [|right; eauto].
      destruct (mo_sym tp w Cm v c E) as (_ & stc & Hc). congruence.
    + exact G.
Qed.

Section Deliver.
Variables (w : world) (k : nat) (m : msg) (st st' : nstate) (acts : list action).
Hypothesis C : CI w.
Hypothesis Em : nth_error (w_flight w) k = Some m.
Hypothesis Ev : rnode_at w (m_to m) = Some st.
Hypothesis D : dfacts st (m_upd m) (m_from m) (tp (u_origin (m_upd m))) st' acts.
Local Notation w' := (rdelivered w k m st st' acts).
Local Notation rv := (m_to m).
Local Notation u := (m_upd m).
Local Notation oo := (u_origin (m_upd m)).

Lemma rnode_delivered i : rnode_at w' i = if i =? rv then Some st' else rnode_at w i.
Proof. apply nth_update_node with (x := st), Ev. Qed.

Lemma rnode_delivered_cases i sti : rnode_at w' i = Some sti ->
  (i = rv /\ sti = st') \/ (i <> rv /\ rnode_at w i = Some sti).
Proof.
  rewrite rnode_delivered. destruct (N.eqb_spec i rv) as [->|Hi]; [|auto].
  intro E. inversion E. auto.
Qed.

Lemma receiver_self : ns_self st = rv.
Proof. exact (mo_self tp w (ci_mesh w C) rv st Ev). Qed.

Lemma node_before i sti' : rnode_at w' i = Some sti' ->
  exists sti, rnode_at w i = Some sti /\
              ns_self sti' = ns_self sti /\ ns_conns sti' = ns_conns sti /\ ns_epoch sti' = ns_epoch sti.
Proof.
  intro Hi. destruct (rnode_delivered_cases i sti' Hi) as [[-> ->]|[_ Hi0]]; [|eauto].
  exists st. destruct D. auto.
Qed.

Lemma receiver_info_mono o : pair_le (aget o (ns_info st)) (aget o (ns_info st')) = true.
Proof.
  destruct (df_cases _ _ _ _ _ _ D) as [(-> & _)|(-> & Hnew & _)]; [apply pair_le_refl|].
  destruct (N.eq_dec o oo) as [->|Hne].
  - rewrite aget_aset_same. now apply pair_le_total.
  - rewrite aget_aset_other by assumption. apply pair_le_refl.
Qed.

Lemma info_mono o i : pair_le (info_at w o i) (info_at w' o i) = true.
Proof.
  unfold info_at. rewrite rnode_delivered. destruct (N.eqb_spec i rv) as [->|_]; [|apply pair_le_refl].
  rewrite Ev. apply receiver_info_mono.
Qed.

Lemma hasP_mono o P i : hasP w o P i -> hasP w' o P i.
Proof. intros [->|H]; [now left|right]. eapply pair_le_trans; [exact H|apply info_mono]. Qed.

Lemma rflight_delivered m' : In m' (w_flight w') ->
  In m' (w_flight w) \/ (m_from m' = rv /\ m_upd m' = with_fwd rv u).
Proof.
  intro H. apply in_app_or in H as [H|H]; [left; eapply remove_nth_In, H|right].
  apply in_relay_msgs in H as (c & u' & Ha & ->). cbn [m_from m_upd].
  destruct (df_relays_only _ _ _ _ _ _ D c u' Ha) as (-> & _). now rewrite receiver_self.
Qed.

(* up to the forwarder, which no clause of the invariants looks at, it was in flight before *)
Lemma flight_like m' : In m' (w_flight w') ->
  exists mo f, In mo (w_flight w) /\ m_upd m' = with_fwd f (m_upd mo).
Proof.
  intro H. destruct (rflight_delivered m' H) as [H0|[_ E]].
  - exists m', (u_fwd (m_upd m')). now rewrite with_fwd_same.
  - exists m, rv. split; [eapply nth_error_In, Em|exact E].
Qed.

Lemma receiver_knows : rv <> oo -> pair_le (Some (pair_of u)) (aget oo (ns_info st')) = true.
Proof.
  intro Hne. destruct (df_cases _ _ _ _ _ _ D) as [(-> & _ & H)|(-> & _)].
  - apply H. rewrite receiver_self. congruence.
  - rewrite aget_aset_same. apply lex_le_refl.
Qed.

Lemma delivered_CI : CI w'.
Proof.
  destruct C as [Cm Ct Ce Ci Cs]. pose proof (nth_error_In _ _ Em) as Hm.
  constructor.
  - destruct Cm as [Mself Mconns Msym Mnoself]. constructor; [| | |exact Mnoself].
    + intros i sti' Hi. destruct (node_before i sti' Hi) as (sti & Hi0 & -> & _). exact (Mself i sti Hi0).
    + intros i sti' Hi. destruct (node_before i sti' Hi) as (sti & Hi0 & _ & -> & _). exact (Mconns i sti Hi0).
    + intros a b H. destruct (Msym a b H) as (H1 & stb & Hb). split; [exact H1|].
      rewrite rnode_delivered. destruct (b =? rv); eauto.
  - intros m' H. destruct (flight_like m' H) as (mo & f & Hmo & ->). exact (Ct mo Hmo).
  - intros m' sto H. destruct (flight_like m' H) as (mo & f & Hmo & ->). intro Ho.
    destruct (node_before _ _ Ho) as (sto0 & Ho0 & _ & _ & ->). exact (Ce mo sto0 Hmo Ho0).
  - intros m1 m2 H1 H2.
    destruct (flight_like m1 H1) as (a1 & f1 & Ha1 & ->), (flight_like m2 H2) as (a2 & f2 & Ha2 & ->).
    exact (Ci a1 a2 Ha1 Ha2).
  - intros m' i sti' H Hi. destruct (flight_like m' H) as (mo & f & Hmo & ->).
    (* the goal with the projections of [with_fwd f (m_upd mo)] computed, nothing else *)
    change (i <> u_origin (m_upd mo) -> mem_N (u_id (m_upd mo)) (ns_seen sti') = true ->
            exists p, aget (u_origin (m_upd mo)) (ns_info sti') = Some p /\ lex_le (pair_of (m_upd mo)) p = true).
    intros Hio Hseen.
    destruct (rnode_delivered_cases i sti' Hi) as [[-> ->]|[_ Hi0]]; [|exact (Cs mo i sti' Hmo Hi0 Hio Hseen)].
    assert (Hcase : mem_N (u_id (m_upd mo)) (ns_seen st) = true \/ u_id (m_upd mo) = u_id u).
    { destruct (df_seen _ _ _ _ _ _ D) as [E|E]; rewrite E in Hseen; [now left|].
      rewrite mem_N_sadd in Hseen. apply orb_true_iff in Hseen as [Hs|Hs]; [right; now apply N.eqb_eq|now left]. }
    apply pair_le_Some. destruct Hcase as [Hb|Hb].
    + (* seen before: the node knew enough then, and knows no less now *)
      eapply pair_le_trans; [apply pair_le_Some, (Cs mo rv st Hmo Ev Hio Hb)|apply receiver_info_mono].
    + (* seen now: it is the delivered update *)
      destruct (Ci mo m Hmo Hm Hb) as [Ho Hp]. rewrite Ho in Hio |- *. rewrite Hp. now apply receiver_knows.
Qed.

Lemma delivered_PO o P : PO o P w -> PO o P w'.
Proof.
  intros [K J G]. destruct (ci_mesh w C) as [Mself Mconns Msym Mnoself]. pose proof (nth_error_In _ _ Em) as Hm.
  assert (Hrecv : carries o P m -> hasP w' o P rv).
  { intros [Ho Hle]. destruct (N.eq_dec rv o) as [Hvo|Hvo]; [now left|right].
    unfold info_at. rewrite rnode_delivered, N.eqb_refl, <- Ho.
    apply (pair_le_trans _ (Some (pair_of u))); [exact Hle|apply receiver_knows; congruence]. }
  constructor.
  - intros m' H Hc. destruct (rflight_delivered m' H) as [H0|[Hf Hu]]; [now apply hasP_mono, K|].
    rewrite Hf. apply Hrecv. unfold carries in *. now rewrite Hu in Hc.
  - apply passed_on_deliver with (has := hasP w o P) (m := m).
    + exact Em.
    + apply hasP_dec.
    + apply hasP_mono.
    + intros i Hi [->|H]; [now left|right]. unfold info_at in *. rewrite rnode_delivered in H.
      destruct (N.eqb_spec i rv); [contradiction|exact H].
    + intro Hc. split; [exact (K m Hm Hc)|exact (Hrecv Hc)].
    + (* the receiver has just learned: it has taken over u, which is an update of o with at least P *)
      intros Hnot [Hvo|Hv]; [contradiction Hnot; now left|].
      unfold hasP, info_at in Hnot, Hv. rewrite Ev in Hnot. rewrite rnode_delivered, N.eqb_refl in Hv.
      destruct (df_cases _ _ _ _ _ _ D) as [(Hsame & _)|(Hinfo & _ & _ & Hrel)]; [rewrite Hsame in Hv; tauto|].
      rewrite Hinfo in Hv.
      destruct (N.eq_dec o oo) as [->|Hne]; [|rewrite aget_aset_other in Hv by assumption; tauto].
      rewrite aget_aset_same in Hv. split; [now split|].
      intros c Hc Hcx. exists {| m_from := rv; m_to := c; m_upd := with_fwd rv u |}. cbn [m_from m_to m_upd].
      split; [|split; [reflexivity|split; [reflexivity|now split]]].
      apply in_relay_msgs. exists c, (with_fwd rv u). split; [|now rewrite receiver_self].
      rewrite <- receiver_self at 1. apply Hrel; [apply (Mconns rv st Ev), Hc|exact Hcx].
    + exact J.
  - intros i sti' Hi Hio Hle.
    destruct (rnode_delivered_cases i sti' Hi) as [[-> ->]|[_ Hi0]]; [|exact (G i sti' Hi0 Hio Hle)].
    destruct (df_cases _ _ _ _ _ _ D) as [(Hi' & Hk & _)|(Hinfo & _ & [Hrow Hrows] & _)].
    { rewrite Hk. rewrite Hi' in Hle. exact (G rv st Ev Hio Hle). }
    destruct (N.eq_dec o oo) as [->|Hne]; [exact Hrow|].
    rewrite Hinfo, aget_aset_other in Hle by assumption. specialize (Hrows o Hne).
    rewrite (G rv st Ev Hio Hle) in Hrows. destruct Hrows as [H|(_ & Hnl & ->)]; [exact H|].
    (* u's origin does not list o, so by symmetry o does not list u's origin: nothing is pruned *)
    f_equal. apply adel_notin. destruct (amem oo (tp o)) eqn:E; [|reflexivity].
    destruct (Msym o oo E) as [Hc _]. congruence.
Qed.
End Deliver.

Lemma deliver_preserves w k w' n :
  CI w -> wstep w (Deliver k) = Some (w', n) ->
  CI w' /\ forall o P, PO o P w -> PO o P w'.
Proof.
  intros C Hstep. simpl in Hstep.
  destruct (nth_error (w_flight w) k) as [m|] eqn:Em; [|discriminate].
  fold (rnode_at w (m_to m)) in Hstep. destruct (rnode_at w (m_to m)) as [st|] eqn:Ev.
  2:{ inversion Hstep; subst w' n. exact (dropped_preserves w k m C Em Ev). }
  pose proof (nth_error_In _ _ Em) as Hm. destruct (ci_true w C m Hm) as (T0 & Tc & Ts & Tp).
  pose proof (mo_self tp w (ci_mesh w C) _ _ Ev) as Hsv.
  assert (D : dfacts st (m_upd m) (m_from m) (tp (u_origin (m_upd m)))
                (fst (handle_update st (m_upd m) (m_from m))) (snd (handle_update st (m_upd m) (m_from m)))).
  { apply deliver_facts; auto.
    - apply (mo_noself tp w (ci_mesh w C)).
    - intro Hs. symmetry. apply (ci_epoch w C m st Hm). now rewrite Hs, Hsv.
    - intros Hne Hs. apply pair_le_Some, (ci_seen w C m (m_to m) st Hm Ev); congruence. }
  destruct (handle_update st (m_upd m) (m_from m)) as [st' acts]. cbn [fst snd] in D.
  inversion Hstep; subst w' n.
  split; [exact (delivered_CI w k m st st' acts C Em Ev D)|].
  intros o P. exact (delivered_PO w k m st st' acts C Em Ev D o P).
Qed.

Section Tick.
Variables (w : world) (o : node) (u : upd) (st : nstate).
Hypothesis C : CI w.
Hypothesis Ho : rnode_at w o = Some st.
Hypothesis Tu : true_upd tp u.
Hypothesis F : fresh_for w o u.
Local Notation w' := {| w_nodes := w_nodes w; w_flight := w_flight w ++ tick_msgs o u (ns_conns st) |}.

Lemma flight_ticked m : In m (w_flight w') -> In m (w_flight w) \/ (m_from m = o /\ m_upd m = u).
Proof.
  intro H. apply in_app_or in H as [H|H]; [now left|right].
  apply in_map_iff in H as [c [<- _]]. auto.
Qed.

Lemma tick_CI : CI w'.
Proof.
  destruct C as [Cm Ct Ce Ci Cs], F as (Fo & Fseen & Fid & _ & _ & Fepoch). constructor.
  - destruct Cm. now constructor.
  - intros m H. destruct (flight_ticked m H) as [H0|[_ ->]]; auto.
  - intros m sto H Hso. destruct (flight_ticked m H) as [H0|[_ E]]; [exact (Ce m sto H0 Hso)|].
    rewrite E, Fo in Hso. rewrite E. now apply Fepoch.
  - intros m1 m2 H1 H2 Hid.
    destruct (flight_ticked m1 H1) as [H10|[_ E1]], (flight_ticked m2 H2) as [H20|[_ E2]].
    + now apply Ci.
    + specialize (Fid m1 H10). congruence.
    + specialize (Fid m2 H20). congruence.
    + now rewrite E1, E2.
  - intros m v sv H Hv Hvo Hs. destruct (flight_ticked m H) as [H0|[_ E]]; [exact (Cs m v sv H0 Hv Hvo Hs)|].
    rewrite E, (Fseen v sv Hv) in Hs. discriminate.
Qed.

Lemma tick_keeps o' P : PO o' P w -> PO o' P w'.
Proof.
  intros [K J G]. destruct F as (Fo & _). constructor; [| |exact G].
  - intros m H Hc. destruct (flight_ticked m H) as [H0|[Hf Hu]]; [now apply K|].
    left. destruct Hc as [Hom _]. congruence.
  - eapply passed_on_more; [|exact J]. intros m H. apply in_or_app. now left.
Qed.

(* u's pair is newer than anything stored about o: only o itself "has" it *)
Lemma tick_nobody v : hasP w o (pair_of u) v -> v = o.
Proof.
  destruct F as (_ & _ & _ & Finfo & _). intros [->|H]; [reflexivity|]. unfold info_at in H.
  destruct (rnode_at w v) as [sv|] eqn:Hv; [|discriminate].
  apply pair_le_Some in H as (p & Hp & Hle). apply lex_le_lt_false in Hle.
  rewrite (Finfo v sv p Hv Hp) in Hle. discriminate.
Qed.

Lemma tick_starts : PO o (pair_of u) w'.
Proof.
  destruct F as (Fo & _ & _ & _ & Fflight & _). constructor.
  - intros m H [Hom Hle]. destruct (flight_ticked m H) as [H0|[Hf _]]; [|now left].
    apply lex_le_lt_false in Hle. rewrite (Fflight m H0 Hom) in Hle. discriminate.
  - apply passed_on_start with (o := o); [exact tick_nobody|]. intros c E.
    exists {| m_from := o; m_to := c; m_upd := u |}.
    split; [|split; [reflexivity|split; [reflexivity|split; [exact Fo|apply lex_le_refl]]]].
    apply in_or_app. right. apply in_map_iff. exists c. split; [reflexivity|].
    apply (mo_conns tp w (ci_mesh w C) o st Ho), E.
  - intros v sv Hv Hvo Hle. contradiction Hvo. apply tick_nobody. right. unfold info_at.
    change (rnode_at w v = Some sv) in Hv. now rewrite Hv.
Qed.
End Tick.

Lemma rrun_preserves : forall ls w w', rrun tp w ls w' -> CI w ->
  CI w' /\ (forall o P, PO o P w -> PO o P w') /\ (forall o, ticked o ls -> exists P, PO o P w').
Proof.
  intros ls w w' Hr. induction Hr as [w|w l w1 ls w2 Hs Hr IH]; intro C.
  - split; [exact C|]. split; [auto|]. intros o [u []].
  - assert (H1 : CI w1 /\ (forall o P, PO o P w -> PO o P w1) /\
                 (forall o u, l = RTick o u -> PO o (pair_of u) w1)).
    { inversion Hs; subst.
      - destruct (deliver_preserves _ _ _ _ C H) as [A B]. split; [exact A|]. split; [exact B|].
        intros o u E. discriminate.
      - split; [now apply tick_CI|]. split; [intros o' P; now apply tick_keeps|].
        intros o' u' E. inversion E; subst. now apply tick_starts. }
    destruct H1 as [C1 [P1 T1]]. destruct (IH C1) as [C2 [P2 T2]].
    split; [exact C2|]. split; [intros o P H; apply P2, P1, H|].
    intros o [u [E|Hin]].
    + exists (pair_of u). apply P2. now apply T1.
    + apply T2. exists u. exact Hin.
Qed.

(* THE KNOWN GRAPH CONVERGES.  From any clean world, after every interleaving of ticks and
   deliveries in which o has ticked, once nothing is in flight every node connected to o in the
   real topology holds exactly o's true adjacency. *)
Theorem known_graph_converges : forall ls w w' o v,
  CI w -> rrun tp w ls w' -> ticked o ls -> w_flight w' = [] ->
  treach tp o v -> v <> o ->
  exists st, rnode_at w' v = Some st /\ aget o (ns_known st) = Some (tp o).
Proof.
  intros ls w w' o v C Hr Ht Hq Hreach Hvo.
  destruct (rrun_preserves _ _ _ Hr C) as (_ & _ & T). destruct (T o Ht) as (P & [K J G]).
  rewrite Hq in J.
  (* the news has crossed every edge on the way from o to v *)
  assert (Hv : hasP w' o P v).
  { clear Hvo. induction Hreach as [|x b Hreach IH Hb]; [now left|].
    exact (passed_on_quiet _ _ _ _ _ _ x b J Hb IH). }
  destruct Hv as [->|Hv]; [congruence|]. unfold info_at in Hv.
  destruct (rnode_at w' v) as [st|] eqn:Hst; [|discriminate].
  exists st. split; [reflexivity|]. exact (G v st Hst Hvo Hv).
Qed.
End Clean.

(* line 1 — 2 — 3 (node 0 is the unused empty identifier) *)
Definition ex_tp : topo := fun i =>
  if i =? 1 then [(2, 1)] else if i =? 2 then [(1, 1); (3, 1)] else if i =? 3 then [(2, 1)] else [].
Definition ex_nd (i : node) (conns : list node) : nstate :=
  {| ns_self := i; ns_epoch := 100; ns_conns := conns; ns_info := []; ns_known := []; ns_seen := [];
     ns_down := false |}.
Definition ex_w0 : world :=
  {| w_nodes := [ex_nd 0 []; ex_nd 1 [2]; ex_nd 2 [1; 3]; ex_nd 3 [2]]; w_flight := [] |}.
Definition ex_u1 : upd :=
  {| u_origin := 1; u_id := 77; u_epoch := 100; u_seq := 1; u_conns := Some [(2, 1)]; u_fwd := 1; u_susp := 0 |}.

Lemma ex_w0_nodes i st : rnode_at ex_w0 i = Some st ->
  (i = 0 /\ st = ex_nd 0 []) \/ (i = 1 /\ st = ex_nd 1 [2]) \/ (i = 2 /\ st = ex_nd 2 [1; 3]) \/ (i = 3 /\ st = ex_nd 3 [2]).
Proof.
  unfold rnode_at, ex_w0. cbn [w_nodes]. intro H.
  destruct (N.to_nat i) as [|[|[|[|k]]]] eqn:E; simpl in H; inversion H; subst.
  - left. split; [lia|reflexivity].
  - right; left. split; [lia|reflexivity].
  - right; right; left. split; [lia|reflexivity].
  - right; right; right. split; [lia|reflexivity].
  - destruct k; discriminate.
Qed.

Lemma ex_tp_cases a b : amem b (ex_tp a) = true <->
  (a = 1 /\ b = 2) \/ (a = 2 /\ b = 1) \/ (a = 2 /\ b = 3) \/ (a = 3 /\ b = 2).
Proof.
  split; [|intros [[-> ->]|[[-> ->]|[[-> ->]|[-> ->]]]]; reflexivity].
  unfold ex_tp, amem.
  destruct (N.eqb_spec a 1) as [->|_]; [|destruct (N.eqb_spec a 2) as [->|_]; [|destruct (N.eqb_spec a 3) as [->|_]]];
    cbn [aget].
  - destruct (N.eqb_spec 2 b) as [<-|_]; [|discriminate]. intros _. left. now split.
  - destruct (N.eqb_spec 1 b) as [<-|_]; [intros _; right; left; now split|].
    destruct (N.eqb_spec 3 b) as [<-|_]; [intros _; right; right; left; now split|discriminate].
  - destruct (N.eqb_spec 2 b) as [<-|_]; [|discriminate]. intros _. right; right; right. now split.
  - discriminate.
Qed.

Lemma ex_ci : CI ex_tp ex_w0.
Proof.
  (* nothing is in flight: only the mesh has to be checked *)
  constructor; [|intros m []|intros m st []|intros m1 m2 []|intros m v st []].
  constructor.
  - intros i st H. destruct (ex_w0_nodes i st H) as [[-> ->]|[[-> ->]|[[-> ->]|[-> ->]]]]; reflexivity.
  - intros i st H c. rewrite ex_tp_cases.
    destruct (ex_w0_nodes i st H) as [[-> ->]|[[-> ->]|[[-> ->]|[-> ->]]]]; cbn [ns_conns ex_nd In]; lia.
  - intros a b H. split; [apply ex_tp_cases; apply ex_tp_cases in H; lia|].
    apply ex_tp_cases in H as [[-> ->]|[[-> ->]|[[-> ->]|[-> ->]]]]; eexists; reflexivity.
  - intro a. destruct (amem a (ex_tp a)) eqn:E; [apply ex_tp_cases in E; lia|reflexivity].
Qed.

Lemma ex_fresh : fresh_for ex_w0 1 ex_u1.
Proof.
  split; [reflexivity|]. split; [|split; [|split; [|split]]].
  - (* the ID is unseen *)
    intros i st H. destruct (ex_w0_nodes i st H) as [[-> ->]|[[-> ->]|[[-> ->]|[-> ->]]]]; reflexivity.
  - (* and not in flight *) intros m [].
  - (* nothing is stored about node 1 *)
    intros i st p H Hp. destruct (ex_w0_nodes i st H) as [[-> ->]|[[-> ->]|[[-> ->]|[-> ->]]]]; discriminate.
  - (* nor in flight *) intros m [].
  - (* the epoch is node 1's *) intros st H. inversion H. reflexivity.
Qed.

(* node 1 ticks; its update travels 1 -> 2 -> 3; then nothing is in flight and node 3 holds the
   true adjacency of node 1 *)
Example ex_route_converged :
  exists ls w', rrun ex_tp ex_w0 ls w' /\ ticked 1 ls /\ w_flight w' = [] /\
  exists st, rnode_at w' 3 = Some st /\ aget 1 (ns_known st) = Some (ex_tp 1).
Proof.
  set (ls := [RTick 1 ex_u1; RDeliver 0; RDeliver 0]).
  assert (Hr : exists w3, rrun ex_tp ex_w0 ls w3 /\ w_flight w3 = []).
  { eexists. split.
    - eapply rr_cons.
      + apply rs_tick with (st := ex_nd 1 [2]); [reflexivity| |exact ex_fresh].
        repeat split; try reflexivity. discriminate.
      + eapply rr_cons; [eapply rs_deliver; vm_compute; reflexivity|].
        eapply rr_cons; [eapply rs_deliver; vm_compute; reflexivity|]. apply rr_nil.
    - reflexivity. }
  destruct Hr as (w3 & Hr & Hq).
  assert (Ht : ticked 1 ls) by (exists ex_u1; now left).
  exists ls, w3. split; [exact Hr|]. split; [exact Ht|]. split; [exact Hq|].
  apply (known_graph_converges ex_tp ls ex_w0 w3 1 3 ex_ci Hr Ht Hq); [|lia].
  apply (tr_step ex_tp 1 2 3); [apply (tr_step ex_tp 1 1 2); [apply tr_refl|reflexivity]|reflexivity].
Qed.

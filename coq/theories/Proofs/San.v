(* Proofs/San.v — ReceptorNames inverts MakeReceptorSAN (C20) for valid-UTF-8 node IDs of every
   length the decoder admits ([san_ok]), answers an error and never another name for the others;
   and the historical fixed-offset encoder does not. *)
From Coq Require Import String Lia.
From Receptor Require Import Model.San Proofs.Der.
Open Scope N_scope.

(* an ID is wrapped in at most 39 bytes of headers and OID before the decoder's 2^31 limit applies
   to it; 64 leaves slack *)
Definition small (b : bytes) : bool := blen b <? 2147483584.   (* 2^31 - 64 *)

Definition san_ok (dns ips ids : list bytes) : bool :=
  forallb small dns && forallb small ips && forallb small ids
  && (blen (san_elems dns ips ids strip_parsed) <? 2147483648).

Lemma small_lt b : small b = true -> blen b < 2147483584.
Proof. apply N.ltb_lt. Qed.

Lemma body_bound id : small id = true -> blen (othername_body id) < 2147483648.
Proof.
  intro H. apply small_lt in H. unfold othername_body. rewrite blen_app.
  pose proof (proj2 (tlv_len ID_OID receptor_oid)).
  pose proof (proj2 (tlv_len ID_CTX0_C (tlv ID_UTF8 id))).
  pose proof (proj2 (tlv_len ID_UTF8 id)).
  change (blen receptor_oid) with 9 in *. lia.
Qed.

Lemma strip_parsed_ok id : small id = true ->
  strip_parsed (othername_marshalled id) = othername_body id.
Proof.
  intro H. unfold strip_parsed, othername_marshalled.
  rewrite parse_tlv_tlv_nil; [reflexivity|vm_compute; discriminate|now apply body_bound].
Qed.

Definition san_pairs (dns ips ids : list bytes) : list (N * bytes) :=
  map (fun d => (ID_DNS, d)) dns ++ map (fun i => (ID_IP, i)) ips
  ++ map (fun id => (ID_CTX0_C, othername_body id)) ids.

Lemma san_elems_pairs dns ips ids : forallb small ids = true ->
  san_elems dns ips ids strip_parsed = concat (map ptlv (san_pairs dns ips ids)).
Proof.
  intro H. unfold san_elems, san_pairs. rewrite !map_app, !concat_app, !map_map.
  (* the DNS and IP parts are the same on both sides; so is [concat] *)
  f_equal. f_equal. f_equal.
  induction ids as [|id ids IH]; [reflexivity|].
  cbn [forallb] in H. apply andb_true_iff in H as [H1 H2].
  cbn [map]. rewrite strip_parsed_ok by assumption. unfold ptlv at 1. cbn [fst snd].
  f_equal. now apply IH.
Qed.

Lemma Forall_wf_map tag (g : bytes -> bytes) l :
  (tag mod 32 =? 31) = false -> (forall x, small x = true -> blen (g x) < 2147483648) ->
  forallb small l = true -> Forall wf_pair (map (fun x => (tag, g x)) l).
Proof.
  intros Ht Hg Hl. apply N.eqb_neq in Ht. rewrite forallb_forall in Hl.
  rewrite Forall_map. apply Forall_forall. intros x Hx. split; [exact Ht | apply Hg, Hl, Hx].
Qed.

Lemma pairs_wf dns ips ids :
  forallb small dns = true -> forallb small ips = true -> forallb small ids = true ->
  Forall wf_pair (san_pairs dns ips ids).
Proof.
  assert (Hs : forall x, small x = true -> blen x < 2147483648).
  { intros x Hx. apply small_lt in Hx. lia. }
  intros Hd Hi Hn. unfold san_pairs. rewrite !Forall_app. repeat split.
  - exact (Forall_wf_map ID_DNS (fun x => x) dns eq_refl Hs Hd).
  - exact (Forall_wf_map ID_IP (fun x => x) ips eq_refl Hs Hi).
  - exact (Forall_wf_map ID_CTX0_C othername_body ids eq_refl body_bound Hn).
Qed.

Lemma concat_len_ge (l : list (N * bytes)) :
  (length l <= length (concat (map ptlv l)))%nat.
Proof.
  induction l as [|p l IH]; [simpl; lia|].
  cbn [map concat length]. rewrite app_length.
  pose proof (proj1 (tlv_len (fst p) (snd p))) as H. unfold blen in H. unfold ptlv at 1. lia.
Qed.

Lemma parse_san_elems dns ips ids : san_ok dns ips ids = true ->
  parse_tlv (tlv ID_SEQ (san_elems dns ips ids strip_parsed)) =
    Ok (pelem (ID_SEQ, san_elems dns ips ids strip_parsed), [])
  /\ parse_elems (length (san_elems dns ips ids strip_parsed))
                 (san_elems dns ips ids strip_parsed)
     = Ok (map pelem (san_pairs dns ips ids)).
Proof.
  unfold san_ok. rewrite !andb_true_iff. intros [[[Hd Hi] Hn] Ht]. split.
  - apply parse_tlv_tlv_nil; [vm_compute; discriminate|now apply N.ltb_lt].
  - rewrite san_elems_pairs by assumption.
    apply parse_elems_concat; [now apply pairs_wf|apply concat_len_ge].
Qed.

Lemma isnil_tlv id c rest : isnil (tlv id c ++ rest) = false.
Proof. reflexivity. Qed.
Lemma isnil_tlv0 id c : isnil (tlv id c) = false.
Proof. reflexivity. Qed.

(* asn1.Unmarshal into a Go string, on a UTF8String as the encoder writes it *)
Lemma parse_string_utf8 id : blen id < 2147483648 ->
  parse_string (tlv ID_UTF8 id) = if utf8_valid id then Ok id else Err E_VALUE.
Proof.
  intro Hl. unfold parse_string. rewrite isnil_tlv0. unfold tlv.
  rewrite parse_tl_enc; [|vm_compute; discriminate|exact Hl].
  cbn [bind]. change (ID_UTF8 =? 12) with true. cbn [orb]. cbv iota.
  now rewrite N.leb_refl, to_nat_blen, firstn_all.
Qed.

Lemma decode_othername_body id : small id = true ->
  decode_othername (pelem (ID_CTX0_C, othername_body id)) =
  if utf8_valid id then Ok (Some id) else Err E_VALUE.
Proof.
  intro Hs. pose proof (small_lt _ Hs) as Hl. pose proof (proj2 (tlv_len ID_UTF8 id)).
  unfold decode_othername, pelem. cbn [e_id e_content fst snd].
  rewrite N.eqb_refl. cbn [negb].
  unfold othername_body. cbv zeta. rewrite isnil_tlv.
  rewrite parse_tlv_tlv; [|vm_compute; discriminate|vm_compute; reflexivity].
  cbn [bind e_id e_content].
  rewrite N.eqb_refl. cbn [negb].
  change (oid_ok receptor_oid) with true. cbn [negb]. cbv iota.
  rewrite isnil_tlv0, parse_tlv_tlv_nil; [|vm_compute; discriminate|lia].
  cbn [bind e_content]. rewrite beq_bytes_refl, parse_string_utf8 by lia.
  now destruct (utf8_valid id).
Qed.

Lemma decode_names_skip (f : bytes -> N * bytes) l rest :
  (forall x, fst (f x) mod 32 =? 0 = false) ->
  decode_names (map pelem (map f l) ++ rest) = decode_names rest.
Proof.
  intro H. induction l as [|x l IH]; [reflexivity|].
  cbn [map app decode_names]. unfold pelem at 1. cbn [e_id]. rewrite H. apply IH.
Qed.

Lemma decode_names_ids ids : forallb small ids = true ->
  decode_names (map pelem (map (fun id => (ID_CTX0_C, othername_body id)) ids)) =
  if forallb utf8_valid ids then Ok ids else Err E_VALUE.
Proof.
  induction ids as [|id ids IH]; intro H; [reflexivity|].
  cbn [forallb] in H. apply andb_true_iff in H as [H1 H2].
  cbn [map decode_names].
  change (e_id (pelem (ID_CTX0_C, othername_body id)) mod 32 =? 0) with true. cbv iota.
  rewrite decode_othername_body by assumption.
  cbn [forallb]. destruct (utf8_valid id); cbn [bind andb]; [|reflexivity].
  rewrite IH by assumption. destruct (forallb utf8_valid ids); reflexivity.
Qed.

(* what the decoder makes of the encoder's output, for every ID list within [san_ok] *)
Theorem receptor_names_make_san dns ips ids : san_ok dns ips ids = true ->
  forall v, make_san dns ips ids = Ok v ->
  receptor_names v = if forallb utf8_valid ids then Ok ids else Err E_VALUE.
Proof.
  intros Hok v Hv. unfold make_san, make_san_with in Hv. inversion Hv; subst v; clear Hv.
  destruct (parse_san_elems dns ips ids Hok) as [H1 H2].
  unfold receptor_names.
  rewrite isnil_tlv0, H1. cbn [bind pelem e_id e_content fst snd].
  rewrite N.eqb_refl. cbn [negb].
  rewrite H2. cbn [bind]. unfold san_pairs. rewrite !map_app.
  rewrite decode_names_skip by (intro; reflexivity).
  rewrite decode_names_skip by (intro; reflexivity).
  apply decode_names_ids.
  unfold san_ok in Hok. rewrite !andb_true_iff in Hok. tauto.
Qed.

Corollary san_roundtrip dns ips ids v :
  san_ok dns ips ids = true -> forallb utf8_valid ids = true ->
  make_san dns ips ids = Ok v -> receptor_names v = Ok ids.
Proof. intros H1 H2 H3. rewrite (receptor_names_make_san _ _ _ H1 _ H3), H2. reflexivity. Qed.

(* reading back never yields a different name: exactly the IDs, or an error *)
Corollary decode_never_misnames dns ips ids v :
  san_ok dns ips ids = true -> make_san dns ips ids = Ok v ->
  receptor_names v = Ok ids \/ exists e, receptor_names v = Err e.
Proof.
  intros H1 H3. rewrite (receptor_names_make_san _ _ _ H1 _ H3).
  destruct (forallb utf8_valid ids); eauto.
Qed.

(* the certificate contains exactly the requested names: every GeneralName, in order *)
Theorem general_names_make_san dns ips ids v : san_ok dns ips ids = true ->
  make_san dns ips ids = Ok v ->
  general_names v = Ok (san_pairs dns ips ids).
Proof.
  intros Hok Hv. unfold make_san, make_san_with in Hv. inversion Hv; subst v; clear Hv.
  destruct (parse_san_elems dns ips ids Hok) as [H1 H2].
  unfold general_names. rewrite H1. cbn [bind pelem e_id e_content fst snd].
  rewrite N.eqb_refl. cbn [negb].
  rewrite H2. cbn [bind]. f_equal. rewrite map_map.
  rewrite <- (map_id (san_pairs dns ips ids)) at 2. apply map_ext. now intros [a b].
Qed.

(* the pinned (pre-fix) encoder: refuted at exactly 113 bytes *)
Definition id_of_len (n : nat) : bytes := repeat 110 n.

Example fixed2_ok_112 :
  bind (make_san_fixed2 [] [] [id_of_len 112]) receptor_names = Ok [id_of_len 112].
Proof. vm_compute. reflexivity. Qed.

Theorem fixed2_refuted : exists ids,
  forallb utf8_valid ids = true /\ san_ok [] [] ids = true /\
  exists v, make_san_fixed2 [] [] ids = Ok v /\ receptor_names v <> Ok ids.
Proof.
  exists [id_of_len 113]. split; [vm_compute; reflexivity|]. split; [vm_compute; reflexivity|].
  eexists. split; [reflexivity|]. vm_compute. discriminate.
Qed.

(* non-vacuity: the hypotheses hold for a request with a 300-byte ID, two DNS names and an IP *)
Example san_ok_example :
  san_ok [str "a.example"%string; str "b"%string] [[10; 0; 0; 1]] [id_of_len 300; str "node-1"%string] = true
  /\ forallb utf8_valid [id_of_len 300; str "node-1"%string] = true.
Proof. vm_compute. split; reflexivity. Qed.

(* Proofs/Secrets.v — lemmas for property C19 over Model/Secrets.v. *)
From Coq Require Import String.
From Receptor Require Import Base.AMap Model.Secrets.

Lemma has_prefix_app p s : has_prefix p s = true <-> exists rest, s = p ++ rest.
Proof. exact (prefix_bytes_iff p s). Qed.

Lemma ascii_lower_idem b : ascii_lower (ascii_lower b) = ascii_lower b.
Proof.
  unfold ascii_lower.
  destruct ((65 <=? b) && (b <=? 90)) eqn:E; [|now rewrite E].
  (* a capital plus 32 is above 90, so no capital *)
  apply andb_true_iff in E as [E _]. apply N.leb_le, (N.add_le_mono_r _ _ 32) in E.
  destruct (b + 32 <=? 90) eqn:E2; [|now rewrite andb_false_r].
  apply N.leb_le in E2. now destruct (N.le_trans _ _ _ E E2).
Qed.

Lemma is_secret_case_insensitive k k' :
  map ascii_lower k = map ascii_lower k' -> is_secret k = is_secret k'.
Proof. unfold is_secret. now intros ->. Qed.

Lemma redact_In k v p : In (k, v) (redact p) <-> In (k, v) p /\ is_secret k = false.
Proof.
  unfold redact. rewrite filter_In. unfold secret_entry. simpl.
  now rewrite negb_true_iff.
Qed.

Lemma redact_no_secret p : has_secrets (redact p) = false.
Proof.
  unfold has_secrets, redact. induction p as [|kv p IH]; simpl; [reflexivity|].
  destruct (secret_entry kv) eqn:E; simpl; [exact IH|]. now rewrite E.
Qed.

Lemma redact_nothing_to_hide p : has_secrets p = false -> redact p = p.
Proof.
  unfold has_secrets, redact. induction p as [|kv p IH]; simpl; [reflexivity|].
  intro H. apply orb_false_iff in H as [H1 H2]. rewrite H1. simpl. now rewrite IH.
Qed.

Lemma redact_idem p : redact (redact p) = redact p.
Proof. apply redact_nothing_to_hide, redact_no_secret. Qed.

(* redaction goes entry by entry *)
Lemma redact_app p q : redact (p ++ q) = redact p ++ redact q.
Proof. unfold redact. apply filter_app. Qed.

Lemma eqb_other j id i : (j =? id) = false -> (j =? i) = true -> (id =? i) = false.
Proof. intros E E2. apply N.eqb_eq in E2. subst j. now rewrite N.eqb_sym. Qed.

Lemma lookup_store i id r t : lookup i (store id r t) = if id =? i then Some r else lookup i t.
Proof.
  induction t as [|[j r'] t IH]; simpl; [reflexivity|].
  destruct (j =? id) eqn:E; simpl.
  - apply N.eqb_eq in E. subst j. destruct (id =? i); reflexivity.
  - rewrite IH. destruct (j =? i) eqn:E2; [|reflexivity]. now rewrite (eqb_other j id i).
Qed.

(* [lookup] and [remove] unfold to [aget] and [adel] of Base/AMap.v *)
Lemma lookup_remove i id t : lookup i (remove id t) = if id =? i then None else lookup i t.
Proof.
  destruct (N.eqb_spec id i) as [->|H]; [apply aget_adel_same|apply aget_adel_other; congruence].
Qed.

Lemma lookup_map id (f : unit_rec -> unit_rec) t :
  lookup id (map (fun ir => (fst ir, f (snd ir))) t) = option_map f (lookup id t).
Proof.
  induction t as [|[j r] t IH]; simpl; [reflexivity|]. destruct (j =? id); [reflexivity|exact IH].
Qed.

Lemma assoc_view_map id t :
  assoc_view id (map (fun ir => (fst ir, view_of (snd ir))) t) = option_map view_of (lookup id t).
Proof.
  induction t as [|[j r] t IH]; simpl; [reflexivity|]. destruct (j =? id); [reflexivity|exact IH].
Qed.

(* The three ways a submission ends: refused with the state untouched; allocated, then failed at
   the ttl; created.  A unit is allocated only if its secrets, if any, come with a TLS profile. *)
Inductive submit_outcome (st : state) (id : N) (node wtype tls : bytes) (p : params) : state * resp -> Prop :=
| SubRefused e : e <> E_TTL -> submit_outcome st id node wtype tls p (st, RErr e)
| SubAllocated :
    has_secrets p && isnil tls = false ->
    submit_outcome st id node wtype tls p (set_both id (mkrec [] [] [] p false false) st, RErr E_TTL)
| SubCreated :
    has_secrets p && isnil tls = false ->
    submit_outcome st id node wtype tls p
      (set_both id (mkrec node wtype tls p true false) (set_both id (mkrec [] [] [] p false false) st),
       RCreated id).

Lemma submit_outcomes profiles st id node wtype tls ttl p :
  submit_outcome st id node wtype tls p (submit profiles st id node wtype tls ttl p).
Proof.
  unfold submit.
  destruct (lookup id (mem st)), (lookup id (disk st)); try (now constructor).
  destruct (negb (isnil tls) && negb (mem_bytes tls profiles)); [now constructor|].
  destruct (has_secrets p && isnil tls) eqn:E; [now constructor|].
  destruct (negb ttl); now constructor.
Qed.

Lemma refused_before_store profiles st id node wtype ttl_ok p :
  has_secrets p = true ->
  lookup id (mem st) = None -> lookup id (disk st) = None ->
  step profiles st (Submit id node wtype [] ttl_ok p) = (st, RErr E_SECRET).
Proof.
  intros Hs Hm Hd. simpl. unfold submit. rewrite Hm, Hd, Hs. reflexivity.
Qed.

(* and an unknown profile is refused in the same way *)
Lemma unknown_profile_refused profiles st id node wtype tls ttl_ok p :
  tls <> [] -> mem_bytes tls profiles = false ->
  lookup id (mem st) = None -> lookup id (disk st) = None ->
  step profiles st (Submit id node wtype tls ttl_ok p) = (st, RErr E_TLS).
Proof.
  intros Hn Hk Hm Hd. simpl. unfold submit. rewrite Hm, Hd, Hk.
  destruct tls; [congruence|reflexivity].
Qed.

(* a submission that leaves a unit behind: accepted, or the ttl error that comes after the unit
   has been allocated *)
Definition leaves_unit (r : resp) : bool :=
  match r with RCreated _ => true | RErr e => e =? E_TTL | _ => false end.

(* the last thing such a submission does is write a record with the submitted map to both tables *)
Lemma submit_leaves_unit profiles st id node wtype tls ttl p st1 r :
  step profiles st (Submit id node wtype tls ttl p) = (st1, r) -> leaves_unit r = true ->
  exists rec st0, u_params rec = p /\ st1 = set_both id rec st0.
Proof.
  simpl. intros E Hl. pose proof (submit_outcomes profiles st id node wtype tls ttl p) as O.
  rewrite E in O. inversion O; subst.
  - simpl in Hl. apply N.eqb_eq in Hl. contradiction.
  - now eexists _, _.
  - now eexists _, _.
Qed.

Lemma find_none st id : find st id = None -> lookup id (mem st) = None /\ lookup id (disk st) = None.
Proof.
  unfold find. destruct (lookup id (mem st)); [discriminate|].
  destruct (lookup id (disk st)); [discriminate|auto].
Qed.

Lemma find_some st id r st' : find st id = Some (r, st') -> lookup id (mem st') = Some r.
Proof.
  unfold find. destruct (lookup id (mem st)) as [r0|] eqn:Em.
  - now intros [= <- <-].
  - destruct (lookup id (disk st)) as [r0|]; [|discriminate].
    intros [= <- <-]. simpl. now rewrite lookup_store, N.eqb_refl.
Qed.

Lemma run_cons profiles st o h :
  run profiles st (o :: h) =
  (fst (run profiles (fst (step profiles st o)) h),
   snd (step profiles st o) :: snd (run profiles (fst (step profiles st o)) h)).
Proof.
  simpl. destruct (step profiles st o) as [st1 r]. simpl. now destruct (run profiles st1 h).
Qed.

Lemma run_invariant profiles (P : state -> Prop) (A : op -> Prop) (R : resp -> Prop) :
  (forall st o, A o -> P st -> P (fst (step profiles st o)) /\ R (snd (step profiles st o))) ->
  forall h st, Forall A h -> P st ->
  P (fst (run profiles st h)) /\ Forall R (snd (run profiles st h)).
Proof.
  intros Hstep. induction h as [|o h IH]; intros st Ha Hp; [split; [exact Hp|constructor]|].
  inversion Ha as [|? ? Ho Hh]; subst. destruct (Hstep st o Ho Hp) as [Hp1 Hr].
  destruct (IH _ Hh Hp1) as [Hp2 Hrs]. rewrite run_cons. simpl. split; [exact Hp2|now constructor].
Qed.

Section Records.

(* [Q i r]: a property of the record [r] kept for unit [i], in the index or on disk;
   [M m]: a property of a transmission *)
Variable Q : N -> unit_rec -> Prop.
Variable M : sent_msg -> Prop.

Definition tbl_all (t : table) : Prop := forall i r, lookup i t = Some r -> Q i r.
Definition all_recs (st : state) : Prop :=
  tbl_all (mem st) /\ tbl_all (disk st) /\ forall m, In m (sent st) -> M m.

Lemma tbl_all_store i r t : Q i r -> tbl_all t -> tbl_all (store i r t).
Proof.
  intros Hr Ht j r'. rewrite lookup_store. destruct (i =? j) eqn:E; [|apply Ht].
  apply N.eqb_eq in E. subst j. now intros [= <-].
Qed.

Lemma tbl_all_remove i t : tbl_all t -> tbl_all (remove i t).
Proof. intros Ht j r. rewrite lookup_remove. destruct (i =? j); [discriminate|apply Ht]. Qed.

Lemma all_recs_set_both i r st : Q i r -> all_recs st -> all_recs (set_both i r st).
Proof. intros Hr (Hm & Hd & Hs). repeat split; [now apply tbl_all_store ..|exact Hs]. Qed.

(* Apart from submission, a step writes only records it has found, with the flags rewritten: the
   process that started the unit is gone ([unlive]), or the start job of a live unit has sent the
   command ([delivered]), which is the one occasion on which something is transmitted. *)
Definition delivered (r : unit_rec) : unit_rec :=
  mkrec (u_node r) (u_wtype r) (u_tls r) (u_params r) true true.

Hypothesis Q_unlive : forall i r, Q i r -> Q i (unlive r).
Hypothesis Q_delivered : forall i r, Q i r -> u_live r = true ->
  Q i (delivered r) /\ M (mksent (u_node r) (u_tls r) (u_params r)).

(* A submission writes the submitted map, and its TLS profile into the record that goes live.
   (The guard [u_live r = true]: the record AllocateUnit saves first has the parameters, secrets
   included, and no TLS profile yet; it is not live.) *)
Definition submits_ok (o : op) : Prop :=
  match o with
  | Submit i _ _ tls _ p =>
    has_secrets p && isnil tls = false ->
    forall r, u_params r = p -> (u_live r = true -> u_tls r = tls) -> Q i r
  | _ => True
  end.

Lemma find_recs st id r st' : find st id = Some (r, st') -> all_recs st -> all_recs st'.
Proof.
  unfold find. destruct (lookup id (mem st)) as [r0|].
  - now intros [= _ <-].
  - destruct (lookup id (disk st)) as [r0|] eqn:Ed; [|discriminate].
    intros [= _ <-] (Hm & Hd & Hs). repeat split; [|exact Hd|exact Hs].
    (* the record loaded is [unlive r0], written out in [find] *)
    apply tbl_all_store; [|exact Hm]. apply (Q_unlive id r0), (Hd id r0 Ed).
Qed.

Lemma step_recs profiles st o : submits_ok o -> all_recs st -> all_recs (fst (step profiles st o)).
Proof.
  intros Ho Hi. destruct o as [i node wtype tls ttl p| i | i | | i | i | i | ]; simpl.
  - (* Submit *)
    destruct (submit_outcomes profiles st i node wtype tls ttl p) as [e _|Hc|Hc]; [exact Hi| |].
    + apply all_recs_set_both; [|exact Hi]. now apply Ho.
    + apply all_recs_set_both; [now apply Ho|]. apply all_recs_set_both; [|exact Hi]. now apply Ho.
  - (* Deliver *)
    destruct (lookup i (mem st)) as [r|] eqn:Em; [|exact Hi].
    destruct (u_live r && negb (u_started r)) eqn:El; [|exact Hi].
    apply andb_true_iff in El as [El _]. destruct Hi as (Hm & Hd & Hs).
    destruct (Q_delivered i r (Hm i r Em) El) as [Hq Hsent].
    repeat split; [now apply tbl_all_store ..|]. intros m [<-|Hin]; [exact Hsent|now apply Hs].
  - (* Status *)
    destruct (find st i) as [[r st']|] eqn:Ef; [|exact Hi]. exact (find_recs _ _ _ _ Ef Hi).
  - (* List *)
    exact Hi.
  - (* ListOne *)
    destruct (find st i) as [[r st']|] eqn:Ef; [|exact Hi]. exact (find_recs _ _ _ _ Ef Hi).
  - (* Cancel *)
    destruct (find st i) as [[r st']|] eqn:Ef; [|exact Hi].
    pose proof (find_recs _ _ _ _ Ef Hi) as Hi'. apply all_recs_set_both; [|exact Hi'].
    apply Q_unlive, (proj1 Hi'), (find_some _ _ _ _ Ef).
  - (* Release *)
    destruct (find st i) as [[r st']|] eqn:Ef; [|exact Hi].
    destruct (find_recs _ _ _ _ Ef Hi) as (Hm & Hd & Hs).
    repeat split; [now apply tbl_all_remove ..|exact Hs].
  - (* Restart: the index is the disk table with every record [unlive] *)
    destruct Hi as (_ & Hd & Hs). repeat split; [|exact Hd|exact Hs].
    intros j r. simpl. rewrite lookup_map. destruct (lookup j (disk st)) as [r0|] eqn:E; [|discriminate].
    intros [= <-]. apply Q_unlive, (Hd j r0 E).
Qed.

End Records.

(* whatever a reply shows for a unit is the redacted map of the record the index then holds *)
Lemma shown_is_redacted profiles st o id q :
  shown id (snd (step profiles st o)) = Some q ->
  exists r, lookup id (mem (fst (step profiles st o))) = Some r /\ q = redact (u_params r).
Proof.
  destruct o as [i node wtype tls ttl p| i | i | | i | i | i | ]; simpl.
  - (* Submit *)
    destruct (submit_outcomes profiles st i node wtype tls ttl p); discriminate.
  - (* Deliver *)
    destruct (lookup i (mem st)) as [r|]; [destruct (u_live r && negb (u_started r))|]; discriminate.
  - (* Status *)
    destruct (find st i) as [[r st']|] eqn:Ef; simpl; [|discriminate].
    destruct (i =? id) eqn:E; [|discriminate]. apply N.eqb_eq in E. subst i.
    intros [= <-]. exists r. split; [apply (find_some _ _ _ _ Ef)|reflexivity].
  - (* List *)
    rewrite assoc_view_map. destruct (lookup id (mem st)) as [r|]; [|discriminate].
    intros [= <-]. now exists r.
  - (* ListOne *)
    destruct (find st i) as [[r st']|] eqn:Ef; simpl; [|discriminate].
    destruct (i =? id) eqn:E; [|discriminate]. apply N.eqb_eq in E. subst i.
    intros [= <-]. exists r. split; [apply (find_some _ _ _ _ Ef)|reflexivity].
  - (* Cancel *)
    destruct (find st i) as [[r st']|]; discriminate.
  - (* Release *)
    destruct (find st i) as [[r st']|]; discriminate.
  - (* Restart *)
    discriminate.
Qed.

(* every record of unit [id], in the index or on disk, carries the parameter map [p] *)
Definition holds (id : N) (p : params) : state -> Prop :=
  all_recs (fun i r => i = id -> u_params r = p) (fun _ => True).

Lemma holds_set_both id p r st : u_params r = p -> holds id p (set_both id r st).
Proof.
  intro Hp. repeat split; intros i r'; simpl; rewrite lookup_store; intros E ->;
    rewrite N.eqb_refl in E; now injection E as <-.
Qed.

Definition is_submit_of (id : N) (o : op) : bool :=
  match o with Submit i _ _ _ _ _ => i =? id | _ => false end.

Lemma not_resubmitted_Forall id h :
  not_resubmitted id h = true -> Forall (fun o => is_submit_of id o = false) h.
Proof.
  induction h as [|o h IH]; [constructor|]. destruct o; simpl; try (now constructor; auto).
  intro H. apply andb_true_iff in H as [H1 H2]. apply negb_true_iff in H1. constructor; auto.
Qed.

Lemma run_holds profiles h st id p :
  not_resubmitted id h = true -> holds id p st ->
  forall x q, In x (snd (run profiles st h)) -> shown id x = Some q -> q = redact p.
Proof.
  intros Hn Hh x q Hin.
  apply (run_invariant profiles (holds id p) (fun o => is_submit_of id o = false)
           (fun x => forall q, shown id x = Some q -> q = redact p)) with (h := h) in Hh as [_ Hall].
  - rewrite Forall_forall in Hall. now apply Hall.
  - (* one step: the invariant is kept, and the reply shows a record that satisfies it *)
    intros st' o Hns Hh'. assert (holds id p (fst (step profiles st' o))) as Hh1.
    { apply step_recs; [auto|auto| |exact Hh'].
      (* a submission writes records of another unit only, of which [holds id p] says nothing *)
      destruct o as [i ? ? ? ? ?| | | | | | | ]; simpl; [|exact I ..]. apply N.eqb_neq in Hns.
      intros _ r _ _ E. destruct (Hns E). }
    split; [exact Hh1|]. intros q' Hq. apply shown_is_redacted in Hq as (r & Hr & ->).
    now rewrite (proj1 Hh1 id r Hr).
  - now apply not_resubmitted_Forall.
Qed.

Theorem no_secret_in_any_response profiles st id node wtype tls ttl p st1 r h :
  step profiles st (Submit id node wtype tls ttl p) = (st1, r) -> leaves_unit r = true ->
  not_resubmitted id h = true ->
  forall x q, In x (snd (run profiles st1 h)) -> shown id x = Some q ->
    q = redact p /\ has_secrets q = false /\
    (forall k v, In (k, v) q <-> In (k, v) p /\ is_secret k = false).
Proof.
  intros Hs Hl Hn x q Hin Hq.
  assert (q = redact p) as ->.
  { destruct (submit_leaves_unit _ _ _ _ _ _ _ _ _ _ Hs Hl) as (rec & st0 & Hp & ->).
    eapply run_holds; eauto using holds_set_both. }
  split; [reflexivity|]. split; [apply redact_no_secret|]. intros k v. apply redact_In.
Qed.

(* a live record with secrets names a TLS profile (only live ones are sent from, and the record
   a submission saves first is not live); so does every message sent *)
Definition safe_rec (_ : N) (r : unit_rec) : Prop :=
  u_live r = true -> has_secrets (u_params r) = true -> u_tls r <> [].
Definition safe_msg (m : sent_msg) : Prop := has_secrets (s_params m) = true -> s_tls m <> [].
Definition inv : state -> Prop := all_recs safe_rec safe_msg.

Lemma step_inv profiles st o : inv st -> inv (fst (step profiles st o)).
Proof.
  apply step_recs.
  - discriminate.
  - intros i r H Hl. split; [intros _|]; exact (H Hl).
  - destruct o; simpl; [|exact I ..]. intros Hc r Hp Ht Hl Hsec.
    rewrite Hp in Hsec. rewrite Hsec, <- (Ht Hl) in Hc. now destruct (u_tls r).
Qed.

Lemma inv_init : inv init.
Proof. repeat split; try discriminate; contradiction. Qed.

Lemma run_inv profiles h st : inv st -> inv (fst (run profiles st h)).
Proof.
  intro Hi.
  apply (run_invariant profiles inv (fun _ => True) (fun _ => True)) with (h := h) in Hi as [Hi _].
  - exact Hi.
  - intros st' o _ Hst. split; [now apply step_inv|exact I].
  - now apply Forall_forall.
Qed.

(* a submitted map and a later history for the example of C19 *)
Definition ex_params : params :=
  [(str "SECRET_Token", str "s3"); (str "plain", str "v1"); (str "secret_x", str "s1");
   (str "xsecret_", str "v2")]%string.

Definition ex_history : list op := [Status 1; Restart; List; Cancel 1; ListOne 1].

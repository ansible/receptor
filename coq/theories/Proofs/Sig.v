(* Proofs/Sig.v — lemmas for property C15 over Model/Sig.v.  Everything is proved for an
   arbitrary JWT oracle [jwt] and both settings of [key_ok]. *)
From Coq Require Import ZArith.
From Receptor Require Import Model.Sig.

Lemma Some_eq_iff {A} (x y : A) : Some x = Some y <-> x = y.
Proof. split; congruence. Qed.

Section SigProofs.
Variable jwt : bytes -> jwt_result.
Variable key_ok : bool.

Notation authorize := (authorize jwt key_ok).
Notation exec := (exec jwt key_ok).

Lemma isnil_true b : isnil b = true <-> b = [].
Proof. destruct b; simpl; split; congruence. Qed.
Lemma isnil_false b : isnil b = false <-> b <> [].
Proof. destruct b; simpl; split; congruence. Qed.

Lemma verify_signature_allow_iff tok :
  verify_signature jwt key_ok tok = Allow <-> tok <> [] /\ key_ok = true /\ jwt tok = JValid.
Proof.
  unfold verify_signature. split.
  - destruct tok as [|b tok]; [discriminate|]. destruct key_ok; [|discriminate]. simpl.
    destruct (jwt (b :: tok)); try discriminate. now repeat split.
  - intros (Ht & -> & Hj). destruct tok; [contradiction|]. simpl. now rewrite Hj.
Qed.

(* exactly when processSignature lets a command through *)
Lemma authorize_allow_iff k c tok :
  authorize k c tok = Allow <->
  (should_verify k = false /\ tok = []) \/
  (should_verify k = true /\ (c = Unix \/ (tok <> [] /\ key_ok = true /\ jwt tok = JValid))).
Proof.
  rewrite <- verify_signature_allow_iff. unfold authorize.
  destruct (should_verify k); simpl.
  - (* a verifying type: the unix socket passes, any other connection asks the verifier *)
    destruct c; simpl; [split; auto| |].
    + split; [auto|]. intros [[Hf _]|[_ [Hu|Hv]]]; [discriminate Hf|discriminate Hu|exact Hv].
    + split; [auto|]. intros [[Hf _]|[_ [Hu|Hv]]]; [discriminate Hf|discriminate Hu|exact Hv].
  - (* a type that does not verify: only the absence of a token passes *)
    destruct tok; simpl; [split; auto|].
    split; [discriminate|]. intros [[_ H]|[H _]]; discriminate.
Qed.

(* a token where none is expected is refused on every kind of connection, the unix socket included *)
Lemma authorize_unexpected k c tok :
  should_verify k = false -> tok <> [] -> authorize k c tok = Refuse E_UNEXPECTED.
Proof.
  intros Hv Ht. unfold authorize. rewrite Hv. destruct tok; [congruence|reflexivity].
Qed.

(* A protected command changes nothing and answers with an error, unless a work type decides about
   it (the addressed unit exists) and lets it through. *)
Lemma exec_protected st c tok m :
  protected m = true ->
  (exists e, exec st c tok m = (st, RError e, [])) \/
  (exists k, deciding_kind st m = Some k /\ authorize k c tok = Allow).
Proof.
  destruct m as [newid k rem sw|id|id f|id|id|]; simpl; try discriminate; intros _.
  1: { (* submit: the class of the requested work type decides *)
       destruct (lookup newid st); [eauto|]. destruct (authorize k c tok) eqn:Ea; eauto. }
  (* cancel, release, results: the class of the addressed unit *)
  all: destruct (lookup id st) as [u|]; [|eauto]; destruct (authorize (u_kind u) c tok) eqn:Ea; eauto.
Qed.

(* the same with the deciding work type at hand *)
Lemma exec_protected_kind st c tok m k :
  protected m = true -> deciding_kind st m = Some k ->
  (exists e, exec st c tok m = (st, RError e, [])) \/ authorize k c tok = Allow.
Proof.
  intros Hp Hk. destruct (exec_protected st c tok m Hp) as [H|(k' & Hk' & Ha)]; [now left|].
  rewrite Hk in Hk'. injection Hk' as <-. now right.
Qed.

Theorem effect_requires_authorization st c tok m st' r effs :
  exec st c tok m = (st', r, effs) -> protected m = true ->
  (effs <> [] \/ st' <> st) ->
  exists k, deciding_kind st m = Some k /\
    (c = Unix \/
     (should_verify k = false /\ tok = []) \/
     (tok <> [] /\ key_ok = true /\ jwt tok = JValid)).
Proof.
  intros He Hp Heff. destruct (exec_protected st c tok m Hp) as [[e H]|(k & Hk & Ha)].
  - rewrite H in He. injection He as <- _ <-. destruct Heff; congruence.
  - exists k. split; [exact Hk|]. apply authorize_allow_iff in Ha as [H|[_ [H|H]]]; auto.
Qed.

Theorem unexpected_token_refused st c tok m k :
  protected m = true -> deciding_kind st m = Some k ->
  should_verify k = false -> tok <> [] ->
  exists e, exec st c tok m = (st, RError e, []).
Proof.
  intros Hp Hk Hv Ht. destruct (exec_protected_kind st c tok m k Hp Hk) as [H|Ha]; [exact H|].
  rewrite (authorize_unexpected k c tok Hv Ht) in Ha. discriminate.
Qed.

(* cancel, release (forced or not) and results consult one decision: when it allows, and the unit
   exists, the effect is the command's own *)
Lemma allowed_effect st c tok id u :
  lookup id st = Some u -> authorize (u_kind u) c tok = Allow ->
  snd (exec st c tok (Cancel id)) = [EStopped id] /\
  (forall f, snd (exec st c tok (Release id f)) = [ERemoved id]) /\
  snd (exec st c tok (Results id)) = [ERead id].
Proof. intros Hl Ha. simpl. rewrite Hl, Ha. auto. Qed.

(* status and list never consult the verifier and never change anything *)
Lemma unprotected_pure st c tok m :
  protected m = false -> fst (fst (exec st c tok m)) = st /\ snd (exec st c tok m) = [].
Proof.
  destruct m as [newid k0 rem sw|id|id f|id|id|]; simpl; try discriminate; intros _;
    try destruct (lookup id st); auto.
Qed.

Lemma classify_registered r name signwork :
  name <> s_remote ->
  classify r name signwork =
  match reg_lookup name r with Some true => WVerify | Some false => WPlain | None => WUnknown end.
Proof.
  intro Hn. unfold classify. destruct (beq_bytes name s_remote) eqn:E; [|reflexivity].
  apply beq_bytes_eq in E. contradiction.
Qed.

(* The decision is taken for the type the unit is created with: a local submit that creates a
   unit was let through by [authorize] on the very class [classify] gives the submitted name,
   and the unit carries that class (a local "remote" unit records signwork = false). *)
Theorem decision_for_created_type (r : registry) st c tok newid name signwork st' rp :
  exec_submit_name jwt key_ok r st c tok newid name false signwork = (st', rp, [ECreated newid]) ->
  authorize (classify r name signwork) c tok = Allow /\
  st' = st ++ [(newid, mkunit (match classify r name signwork with WRemote _ => WRemote false | k => k end) false)].
Proof.
  unfold exec_submit_name. simpl.
  destruct (lookup newid st); [discriminate|].
  destruct (authorize (classify r name signwork) c tok) eqn:Ea; [|discriminate].
  unfold submit_kind. destruct (classify r name signwork); intro H; inversion H; auto.
Qed.

End SigProofs.

(* a concrete oracle and node for the examples *)
Definition ex_jwt (tok : bytes) : jwt_result :=
  match tok with [1] => JValid | [2] => JExpired | [3] => JBadKey | _ => JMalformed end.
Definition ex_state : state := [(1, mkunit WVerify false); (2, mkunit WPlain false); (3, mkunit (WRemote true) false)].

(* a token made with the key the target verifies with, for that target, is valid exactly until
   its expiration *)
Lemma signed_token_valid k target expiration elapsed t :
  create_signature (Some k) target expiration = Some t ->
  jwt_of k target elapsed t = (if (expiration <=? elapsed)%Z then JExpired else JValid).
Proof.
  intro H. inversion H; subst. unfold jwt_of. simpl.
  rewrite N.eqb_refl, beq_bytes_refl. simpl. destruct (expiration <=? elapsed)%Z; reflexivity.
Qed.

Lemma other_key_token_invalid k k' target expiration elapsed t :
  k <> k' -> create_signature (Some k) target expiration = Some t -> jwt_of k' target elapsed t = JBadKey.
Proof.
  intros Hne H. inversion H; subst. unfold jwt_of. simpl.
  destruct (k =? k') eqn:E; [apply N.eqb_eq in E; congruence|reflexivity].
Qed.

Lemma other_target_token_invalid k target node expiration elapsed t :
  target <> node -> (elapsed < expiration)%Z ->
  create_signature (Some k) target expiration = Some t -> jwt_of k node elapsed t = JWrongAud.
Proof.
  intros Hne Hlt H. inversion H; subst. unfold jwt_of. simpl. rewrite N.eqb_refl. simpl.
  apply Z.leb_gt in Hlt. rewrite Hlt.
  destruct (beq_bytes target node) eqn:E2; [apply beq_bytes_eq in E2; congruence|reflexivity].
Qed.

Lemma jwt_of_valid_iff vk node elapsed t :
  jwt_of vk node elapsed t = JValid <-> t_key t = vk /\ (elapsed < t_exp t)%Z /\ t_aud t = node.
Proof.
  unfold jwt_of. rewrite <- N.eqb_eq, <- Z.leb_gt, <- beq_bytes_eq.
  destruct (t_key t =? vk), (t_exp t <=? elapsed)%Z, (beq_bytes (t_aud t) node); simpl;
    intuition discriminate.
Qed.

Theorem remote_submit_to_verifying_type sk expiration elapsed signwork vk r target name :
  reg_lookup name r = Some true -> name <> s_remote ->
  (remote_submit_decision sk expiration elapsed signwork vk r target name = Some Allow <->
   signwork = true /\ sk = Some vk /\ (elapsed < expiration)%Z).
Proof.
  intros Hr Hn. unfold remote_submit_decision. rewrite (classify_registered _ _ _ Hn), Hr.
  destruct signwork; [destruct sk as [k|]; simpl|].
  - (* signed: the verifier decides on the token *)
    rewrite Some_eq_iff, authorize_allow_iff, jwt_of_valid_iff. simpl. intuition congruence.
  - (* no signing key: nothing is sent *)
    split; [discriminate|]. intros (_ & H & _). discriminate.
  - (* unsigned: refused for the missing token *)
    simpl. split; [discriminate|]. intros [H _]. discriminate.
Qed.

Theorem remote_submit_to_plain_type sk expiration elapsed signwork vk r target name :
  reg_lookup name r = Some false -> name <> s_remote ->
  (remote_submit_decision sk expiration elapsed signwork vk r target name = Some Allow <-> signwork = false).
Proof.
  intros Hr Hn. unfold remote_submit_decision. rewrite (classify_registered _ _ _ Hn), Hr.
  destruct signwork; simpl.
  - (* signed: refused for the unexpected token, or not sent for want of a signing key *)
    destruct sk; split; discriminate.
  - split; reflexivity.
Qed.

Theorem contains_unix_refuted :
  let node := [109; 117; 110; 105; 120; 49] (* "munix1" *) in
  conn_is_unix (net_of Mesh node []) = false /\
  conn_contains_unix (net_of Mesh node []) = true /\
  ~ (forall c node suffix, conn_contains_unix (net_of c node suffix) = is_unix c).
Proof.
  split; [reflexivity|]. split; [reflexivity|].
  intro H. specialize (H Mesh [109; 117; 110; 105; 120; 49] []). vm_compute in H. discriminate.
Qed.

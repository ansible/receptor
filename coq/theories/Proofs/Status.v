(* Proofs/Status.v — the encoding of the status record (Model/Status.v); then, about Model/Crash.v:
   what the single steps and the whole operations Save, UpdateFullStatus and Load do to an intact
   and to an emptied record, what [recover] makes of either, and the counterexample to the full
   statement of property C04 (the witnesses of the others are defined here, next to it). *)
From Coq Require Import PeanoNat.
From Receptor Require Import Base.ListFacts Model.Crash.
Open Scope N_scope.

Lemma take_bytes_enc b r : take_bytes (enc_bytes b ++ r) = Some (b, r).
Proof.
  unfold enc_bytes, take_bytes. simpl. rewrite Nat2N.id.
  assert (H : Nat.leb (length b) (length (b ++ r)) = true)
    by (apply Nat.leb_le; rewrite app_length; apply Nat.le_add_r).
  rewrite H. f_equal. f_equal.
  - now apply firstn_app_exact.
  - now apply skipn_app_exact.
Qed.

Lemma dec_extra_enc e r : dec_extra (enc_extra e ++ r) = Some (e, r).
Proof.
  destruct e as [|pid|n t u st]; [reflexivity|reflexivity|].
  unfold enc_extra. rewrite <- !app_assoc. cbn [app dec_extra]. rewrite !take_bytes_enc.
  destruct st; reflexivity.
Qed.

Theorem parse_encode : forall s, parse (encode s) = Some s.
Proof.
  intros [st sz wt ex]. unfold encode. cbn [s_state s_size s_wtype s_extra app parse].
  rewrite take_bytes_enc, dec_extra_enc. reflexivity.
Qed.

Theorem parse_nil : parse [] = None.
Proof. reflexivity. Qed.

Lemma beq_extra_refl e : beq_extra e e = true.
Proof.
  destruct e as [|p|n t u s]; simpl; [reflexivity|apply N.eqb_refl|].
  rewrite !beq_bytes_refl. now destruct s.
Qed.

Lemma beq_status_refl s : beq_status s s = true.
Proof. unfold beq_status. now rewrite !N.eqb_refl, beq_bytes_refl, beq_extra_refl. Qed.

Lemma encode_cons s : exists b l, encode s = b :: l.
Proof. unfold encode. cbn [app]. eauto. Qed.

Lemma record_of_intact x s : uf_status x = Some (encode s) -> record_of x = Some s.
Proof. intro H. unfold record_of, status_content. now rewrite H, parse_encode. Qed.

Lemma follow_intact x s m : uf_status x = Some (encode s) -> follow x m = s.
Proof. intro H. unfold follow, status_content. now rewrite H, parse_encode. Qed.

Lemma same_record x a b : uf_status x = Some (encode a) -> uf_status x = Some (encode b) -> a = b.
Proof.
  intros Ha Hb. rewrite Ha in Hb. assert (E : encode a = encode b) by congruence.
  apply (f_equal parse) in E. rewrite !parse_encode in E. congruence.
Qed.

(* a cut text is not a record either (computed on a record with every kind of field) *)
Example parse_cut :
  let e := encode (mkStatus 2 150 [101; 109; 105; 116] (XRemote [98] [101] [85; 49] true)) in
  forallb (fun k => match parse (firstn k e) with None => true | Some _ => false end)
          (seq 0 (length e)) = true.
Proof. vm_compute. reflexivity. Qed.

Lemma exec_op x m o : exec_step (mkP x m false) (MOp o) = mkP (uapply x o) m false.
Proof. reflexivity. Qed.
Lemma exec_apply x m f : exec_step (mkP x m false) (MApply f) = mkP x (apply_upd x f m) false.
Proof. reflexivity. Qed.
Lemma exec_store x m :
  exec_step (mkP x m false) MStore = mkP (uapply x (UWriteAt FStatus 0 (encode m))) m false.
Proof. reflexivity. Qed.

Lemma exec_load_record x m s strict : uf_status x = Some (encode s) ->
  exec_step (mkP x m false) (MLoad strict) = mkP x s false.
Proof.
  intro H. unfold exec_step. cbn [p_err p_fs p_mem]. unfold status_content. rewrite H.
  pose proof (parse_encode s) as P. destruct (encode_cons s) as [b [l E]]. rewrite E in *.
  now rewrite P.
Qed.

Lemma exec_load_empty x m strict : uf_status x = Some [] ->
  exec_step (mkP x m false) (MLoad strict) = mkP x m strict.
Proof. intro H. unfold exec_step. cbn [p_err p_fs p_mem]. unfold status_content. now rewrite H. Qed.

Lemma write_at_nil b : write_at [] 0 b = b.
Proof. unfold write_at. simpl. rewrite skipn_nil. apply app_nil_r. Qed.

(* the unit's files without the lock file, which carries no information *)
Definition core (x : ufiles) := (uf_dir x, uf_status x, uf_stdin x, uf_stdout x).

(* the files after a rewrite of the record: every rewriting operation has first opened the lock
   file with O_TRUNC *)
Definition with_status (x : ufiles) (c : bytes) : ufiles :=
  mkU (uf_dir x) (Some c) (Some []) (uf_stdin x) (uf_stdout x).

Definition locked (x : ufiles) : ufiles := uapply x (UOpenTrunc FLock).

Lemma with_status_locked x c : with_status (locked x) c = with_status x c.
Proof. reflexivity. Qed.

Lemma apply_upd_stdout x y f s : uf_stdout x = uf_stdout y -> apply_upd x f s = apply_upd y f s.
Proof.
  intro H. destruct f as [st [| |]| | | | |]; simpl; try reflexivity.
  unfold stdout_size, stdout_content. now rewrite H.
Qed.

Lemma open_existing x c : uf_status x = Some c -> uapply x (UOpenCreate FStatus) = x.
Proof. intro H. unfold uapply. cbn [uget]. now rewrite H. Qed.

(* a whole UpdateFullStatus on an existing status file: whatever its Load leaves in memory is
   updated and written *)
Lemma upd_op_loaded x m f c s0 : uf_status x = Some c ->
  exec_step (mkP (locked x) m false) (MLoad false) = mkP (locked x) s0 false ->
  exec_steps (mkP x m false) (upd_op f) =
  mkP (with_status x (encode (apply_upd x f s0))) (apply_upd x f s0) false.
Proof.
  intros H HL. unfold upd_op, exec_steps. cbn [fold_left]. rewrite exec_op. fold (locked x).
  assert (H1 : uf_status (locked x) = Some c) by exact H.
  rewrite exec_op, (open_existing _ _ H1), HL, exec_apply, exec_op, exec_store.
  rewrite (apply_upd_stdout (locked x) x) by reflexivity. f_equal.
  unfold uapply at 2. cbn [uget]. rewrite H1. cbn [uset].
  unfold uapply. cbn [uget uset uf_dir uf_status uf_lock uf_stdin uf_stdout].
  rewrite write_at_nil. reflexivity.
Qed.

Lemma upd_op_intact x m f s : uf_status x = Some (encode s) ->
  exec_steps (mkP x m false) (upd_op f) =
  mkP (with_status x (encode (apply_upd x f s))) (apply_upd x f s) false.
Proof. intro H. apply (upd_op_loaded _ _ _ _ _ H), exec_load_record, H. Qed.

Lemma upd_op_empty x m f : uf_status x = Some [] ->
  exec_steps (mkP x m false) (upd_op f) =
  mkP (with_status x (encode (apply_upd x f m))) (apply_upd x f m) false.
Proof. intro H. apply (upd_op_loaded _ _ _ _ _ H), exec_load_empty, H. Qed.

Lemma apply_upd_wtype x f s : s_wtype (apply_upd x f s) = s_wtype s.
Proof. destruct f; reflexivity. Qed.

Lemma fs_op_run x m o : exec_steps (mkP x m false) (fs_op o) = mkP (uapply x o) m false.
Proof. reflexivity. Qed.

Lemma save_op_run x m :
  exec_steps (mkP x m false) save_op = mkP (with_status x (encode m)) m false.
Proof.
  unfold save_op, exec_steps. cbn [fold_left]. rewrite !exec_op, exec_store.
  unfold uapply. cbn [uget uset uf_dir uf_status uf_lock uf_stdin uf_stdout].
  now rewrite write_at_nil.
Qed.

(* cut before the truncation, its fifth step, the operation has left the record alone *)
Lemma upd_op_cut x m f s k : uf_status x = Some (encode s) -> (k < 5)%nat ->
  core (p_fs (exec_steps (mkP x m false) (firstn k (upd_op f)))) = core x.
Proof.
  intros H Hk. unfold upd_op, exec_steps.
  destruct k as [|[|[|[|[|k]]]]]; [..|do 5 apply Nat.succ_lt_mono in Hk; inversion Hk];
    cbn [firstn fold_left]; try reflexivity.
  all: rewrite exec_op; fold (locked x);
    assert (H1 : uf_status (locked x) = Some (encode s)) by exact H; try reflexivity.
  all: rewrite exec_op, (open_existing _ _ H1); try reflexivity.
  all: rewrite (exec_load_record _ m s false H1); reflexivity.
Qed.

Lemma load_op_intact x m s : uf_status x = Some (encode s) ->
  exec_steps (mkP x m false) load_op = mkP (locked x) s false.
Proof.
  intro H. unfold load_op, exec_steps. cbn [fold_left]. rewrite exec_op.
  apply exec_load_record. exact H.
Qed.

Lemma load_op_empty x m : uf_status x = Some [] ->
  exec_steps (mkP x m false) load_op = mkP (locked x) m true.
Proof.
  intro H. unfold load_op, exec_steps. cbn [fold_left]. rewrite exec_op.
  apply exec_load_empty. exact H.
Qed.

Definition failed_rec (x : ufiles) (s : status) : status :=
  mkStatus S_FAILED (stdout_size x) (s_wtype s) (s_extra s).

Lemma mark_failed_intact x m e s : uf_status x = Some (encode s) ->
  mark_failed (mkP x m e) = mkP (with_status x (encode (failed_rec x s))) (failed_rec x s) false.
Proof. intro H. exact (upd_op_intact x m _ s H). Qed.

Lemma mark_failed_empty x m e : uf_status x = Some [] ->
  mark_failed (mkP x m e) = mkP (with_status x (encode (failed_rec x m))) (failed_rec x m) false.
Proof. intro H. exact (upd_op_empty x m _ H). Qed.

Lemma recover_intact types x s :
  uf_dir x = true -> uf_status x = Some (encode s) ->
  recover types x =
  match kind_of types (s_wtype s) with
  | KUnknown => (locked x, mkView true false s false)
  | KCmd =>
    if st_complete (s_state s) then (locked x, mkView true true s false)
    else if s_state s =? S_PENDING
         then (with_status x (encode (failed_rec x s)), mkView true true (failed_rec x s) true)
         else (locked x, mkView true true s true)
  | KRemote =>
    if started s then (locked x, mkView true true s true)
    else (with_status x (encode (failed_rec x s)), mkView true true (failed_rec x s) false)
  end.
Proof.
  intros Hd Hs. unfold recover. rewrite Hd. cbn [negb].
  fold (locked x).
  assert (H1 : uf_status (locked x) = Some (encode s)) by exact Hs.
  unfold status_content. rewrite H1, parse_encode.
  rewrite (load_op_intact (locked x) _ s H1). change (locked (locked x)) with (locked x).
  cbn [p_err p_fs p_mem].
  destruct (kind_of types (s_wtype s)).
  - reflexivity.
  - rewrite (load_op_intact (locked x) _ s H1). change (locked (locked x)) with (locked x).
    cbn [p_err p_fs p_mem].
    destruct (st_complete (s_state s)); [reflexivity|].
    destruct (s_state s =? S_PENDING); [|reflexivity].
    rewrite (mark_failed_intact (locked x) s false s H1). cbn [p_fs p_mem]. reflexivity.
  - destruct (started s); [reflexivity|].
    rewrite (mark_failed_intact (locked x) s false s H1). cbn [p_fs p_mem]. reflexivity.
Qed.

(* remoteUnit.Restart of a unit recorded as started: monitored again, in whatever state *)
Lemma recover_started_remote types x s :
  uf_dir x = true -> uf_status x = Some (encode s) ->
  kind_of types (s_wtype s) = KRemote -> started s = true ->
  recover types x = (locked x, mkView true true s true).
Proof. intros Hd Hs Hk Hst. now rewrite (recover_intact types x s Hd Hs), Hk, Hst. Qed.

(* ... of one not recorded as started: marked Failed, not monitored *)
Lemma recover_unstarted_remote types x s :
  uf_dir x = true -> uf_status x = Some (encode s) ->
  kind_of types (s_wtype s) = KRemote -> started s = false ->
  recover types x = (with_status x (encode (failed_rec x s)), mkView true true (failed_rec x s) false).
Proof. intros Hd Hs Hk Hst. now rewrite (recover_intact types x s Hd Hs), Hk, Hst. Qed.

(* marking Failed changes nothing in a record that is Failed with the size of the output file *)
Lemma failed_rec_fixed x s : s_state s = S_FAILED -> s_size s = stdout_size x -> failed_rec x s = s.
Proof. intros Hf Hz. unfold failed_rec. rewrite <- Hf, <- Hz. now destruct s. Qed.

Lemma with_status_same x c : uf_status x = Some c -> core (with_status x c) = core x.
Proof. intro H. unfold core, with_status. cbn [uf_dir uf_status uf_stdin uf_stdout]. now rewrite H. Qed.

Lemma recover_locked types x s : uf_dir x = true -> uf_status x = Some (encode s) ->
  recover types (locked x) = recover types x.
Proof.
  intros Hd Hs. now rewrite (recover_intact types (locked x) s Hd Hs), (recover_intact types x s Hd Hs).
Qed.

(* an emptied record (the truncate->write window): the first restart writes the record of a
   freshly initialised worker of no work type, marked Failed *)
Lemma recover_emptied types x : uf_dir x = true -> uf_status x = Some [] ->
  fst (recover types x) = with_status x (encode (failed_rec x (worker_init (kind_of types []) []))).
Proof.
  intros Hd Hs. unfold recover. rewrite Hd. cbn [negb]. fold (locked x).
  assert (Hl : uf_status (locked x) = Some []) by exact Hs.
  unfold status_content. rewrite Hl. cbn [parse].
  (* Load fails; UpdateBasicStatus on the empty file writes the in-memory record *)
  rewrite (load_op_empty _ _ Hl). cbn [p_err]. rewrite (mark_failed_empty _ _ _ Hl).
  set (fr := failed_rec _ _). cbn [p_err p_fs p_mem]. destruct (kind_of types []).
  - reflexivity.
  - (* Restart of a command unit: Load again, now a finished (Failed) record *)
    now rewrite (load_op_intact (with_status (locked x) (encode fr)) _ fr eq_refl).
  - (* of a remote unit: not started, marked again *)
    change (started fr) with false. cbv iota.
    now rewrite (mark_failed_intact (with_status (locked x) (encode fr)) _ _ fr eq_refl).
Qed.

Definition emit_t : bytes := [101; 109; 105; 116].

(* a local command that writes 3 and 2 bytes and succeeds *)
Definition witness_sc : scenario :=
  mkSc 7 emit_t None false [] [105; 10] [[1; 2; 3]; [4; 5]] true 4242 [emit_t] true.

(* the unit has FINISHED (Succeeded, 5 bytes); the daemon is killed between the truncation and
   the rewrite of the record in which it clears the runner's PID *)
Definition witness_cp : crashpoint := mkCp (repeat true 9 ++ repeat false 7) false 5 0.

Theorem C04_refuted_thm :
  wf_scenario witness_sc = true /\ cp_runner witness_cp = false /\
  in_window witness_sc witness_cp = true /\
  let o := experiment witness_sc witness_cp in
  o_acked o = true /\
  o_before o = Some (mkStatus S_SUCCEEDED 5 emit_t (XCmd 4242)) /\
  v_listed (o_restart o) = true /\ v_known (o_restart o) = false /\
  v_status (o_restart o) = mkStatus S_FAILED 5 [] XNone /\
  v_status (o_again o) = mkStatus S_FAILED 5 [] XNone /\
  holds witness_sc witness_cp = false.
Proof. vm_compute. repeat split; reflexivity. Qed.

Theorem C04_full_statement_refuted : ~ C04_full_statement.
Proof.
  intro H. destruct C04_refuted_thm as [W [R [_ E]]]. cbv zeta in E.
  rewrite (H witness_sc witness_cp W R) in E. now destruct E as [_ [_ [_ [_ [_ [_ E]]]]]].
Qed.

(* the same window while the unit has never been started: the work type is lost as well *)
Definition witness_cp_pending : crashpoint := mkCp (repeat true 5) false 5 0.

(* a remote unit bound to node "b", started there: the binding is lost *)
Definition witness_remote : scenario :=
  mkSc 9 remote_name (Some ([98], emit_t)) true [85; 49] [105] [[]; [1; 2; 3]] true 0 [] true.
Definition witness_cp_remote : crashpoint := mkCp (repeat true 9 ++ [false]) false 5 0.

(* the runner is killed (anywhere, here between two of its rewrites): nobody completes the unit *)
Definition witness_cp_runner : crashpoint := mkCp (repeat true 9 ++ repeat false 4) true 0 1.

(* a crash of the same operation one step later, after the rewrite: outside the window *)
Definition witness_cp_after : crashpoint := mkCp (repeat true 9 ++ repeat false 7) false 6 0.


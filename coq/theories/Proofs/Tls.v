(* Proofs/Tls.v — property C09 over Model/Tls.v: the verifier accepts exactly when every stated
   condition holds; each single failure refuses; what the client and server configurations
   built by receptor demand of a handshake; the stream listener binds the client certificate
   to the claimed source node (repaired tree) and the two historical defects as refutations;
   and the C20 clause: a certificate issued for node IDs [ids] verifies exactly as those IDs. *)
From Coq Require Import String Lia.
From Receptor Require Import Model.Tls Proofs.San.
Open Scope N_scope.

Definition legal_len (n : N) : bool := (n =? 28) || (n =? 32) || (n =? 48) || (n =? 64).

Definition pin_matches (f : facts) (p : bytes) : bool :=
  ((blen p =? 28) && beq_bytes p (f_d224 f)) || ((blen p =? 32) && beq_bytes p (f_d256 f))
  || ((blen p =? 48) && beq_bytes p (f_d384 f)) || ((blen p =? 64) && beq_bytes p (f_d512 f)).

Definition has_len (tbl : list (N * bytes)) (p : bytes) : bool :=
  existsb (fun e => blen p =? fst e) tbl.
Definition tbl_match (tbl : list (N * bytes)) (p : bytes) : bool :=
  existsb (fun e => (blen p =? fst e) && beq_bytes p (snd e)) tbl.

Lemma pin_inner_spec tbl p : forall found ok,
  pin_inner tbl p found ok = (found || has_len tbl p, ok || tbl_match tbl p).
Proof.
  induction tbl as [|[n s] tbl IH]; intros found ok; cbn [pin_inner has_len tbl_match existsb fst snd].
  - now rewrite !orb_false_r.
  - destruct (blen p =? n) eqn:E; cbn [andb orb].
    + destruct (beq_bytes p s) eqn:B.
      * now rewrite !orb_true_r.
      * rewrite IH. cbn [orb]. now rewrite orb_true_r.
    + apply IH.
Qed.

Lemma has_len_table f p : has_len (sum_table f) p = legal_len (blen p).
Proof. unfold has_len, sum_table, legal_len. cbn [existsb fst]. now rewrite orb_false_r, !orb_assoc. Qed.

Lemma tbl_match_table f p : tbl_match (sum_table f) p = pin_matches f p.
Proof. unfold tbl_match, sum_table, pin_matches. cbn [existsb fst snd]. now rewrite orb_false_r, !orb_assoc. Qed.

Lemma pin_loop_spec f pins : forall ok,
  pin_loop (sum_table f) pins ok =
  if forallb (fun p => legal_len (blen p)) pins then Some (ok || existsb (pin_matches f) pins) else None.
Proof.
  induction pins as [|p r IH]; intro ok; cbn [pin_loop forallb existsb].
  - now rewrite orb_false_r.
  - rewrite pin_inner_spec, has_len_table, tbl_match_table. cbn [orb].
    destruct (legal_len (blen p)); cbn [negb andb]; [|reflexivity].
    rewrite IH. now rewrite orb_assoc.
Qed.

(* an illegal length anywhere in the list wins over a mismatch, and is raised even when an earlier
   (or later) pin matches *)
Lemma pins_step_spec pins f :
  pins_step pins f =
  match pins with
  | [] => Accept
  | _ => if forallb (fun p => legal_len (blen p)) pins
         then if existsb (pin_matches f) pins then Accept else Refuse R_PINMISS
         else Refuse R_PINLEN
  end.
Proof.
  unfold pins_step. destruct pins as [|p0 r]; [reflexivity|]. rewrite pin_loop_spec.
  destruct (forallb _ _); [|reflexivity]. now destruct (existsb _ _).
Qed.

Definition pins_ok (pins : list bytes) (f : facts) : Prop :=
  pins = [] \/
  ((forall p, In p pins -> legal_len (blen p) = true) /\
   exists p, In p pins /\ pin_matches f p = true).

Lemma pins_step_accept pins f : pins_step pins f = Accept <-> pins_ok pins f.
Proof.
  unfold pins_ok. rewrite pins_step_spec, <- forallb_forall, <- existsb_exists.
  (* the two tests as variables: their values are all that matters from here on *)
  generalize (forallb (fun p => legal_len (blen p)) pins) (existsb (pin_matches f) pins).
  intros a b. destruct pins; [tauto|]. destruct a, b; intuition discriminate.
Qed.

Lemma forallb_false {A} (g : A -> bool) l :
  forallb g l = false <-> exists x, In x l /\ g x = false.
Proof.
  induction l as [|a l IH]; cbn [forallb In].
  - split; [discriminate | now intros (x & [] & _)].
  - rewrite andb_false_iff, IH. split.
    + intros [H | (x & Hi & H)]; eauto.
    + intros (x & [<-|Hi] & H); eauto.
Qed.

Lemma pins_step_pinlen pins f :
  pins_step pins f = Refuse R_PINLEN <-> exists p, In p pins /\ legal_len (blen p) = false.
Proof.
  rewrite pins_step_spec, <- (forallb_false (fun p => legal_len (blen p))).
  destruct pins as [|p0 r]; [easy|].
  generalize (forallb (fun p => legal_len (blen p)) (p0 :: r)) (existsb (pin_matches f) (p0 :: r)).
  intros a b. now destruct a, b.
Qed.

Definition x509_ok (c : config) (r : role) (f : facts) (now : N) : Prop :=
  chain_ok r f = true /\ time_ok f now = true /\ eku_ok r f = true /\
  (c_htype c = HOST_DNS -> c_expected c <> [] -> f_dns f (c_expected c) = true).

Definition name_ok (c : config) (f : facts) : Prop :=
  c_htype c = HOST_RECEPTOR -> exists names, f_names f = Ok names /\ In (c_expected c) names.

Lemma isnil_false_iff (b : bytes) : isnil b = false <-> b <> [].
Proof. destruct b; cbn; split; congruence. Qed.

(* the host name enters the chain verification only in DNS mode with a name to expect *)
Lemma dns_ok_iff c f :
  dns_ok (dns_name_of c) f = true <->
  (c_htype c = HOST_DNS -> c_expected c <> [] -> f_dns f (c_expected c) = true).
Proof.
  unfold dns_ok, dns_name_of. rewrite <- isnil_false_iff, <- N.eqb_eq.
  destruct (c_htype c =? HOST_DNS), (isnil (c_expected c)) eqn:E; cbn; rewrite ?E; intuition congruence.
Qed.

Lemma x509_verify_iff c r f now :
  x509_verify r (dns_name_of c) f now = true <-> x509_ok c r f now.
Proof. unfold x509_verify, x509_ok. rewrite !andb_true_iff, dns_ok_iff. tauto. Qed.

Lemma names_step_iff c f : names_step c f = Accept <-> name_ok c f.
Proof.
  unfold names_step, name_ok. destruct (c_htype c =? HOST_RECEPTOR) eqn:H.
  - apply N.eqb_eq in H. destruct (f_names f) as [names| |].
    2,3: split; [discriminate | intro Hn; now destruct (Hn H) as (ns & Heq & _)].
    destruct (existsb (beq_bytes (c_expected c)) names) eqn:E.
    + apply existsb_beq_bytes_In in E. split; [eauto | reflexivity].
    + split; [discriminate | intro Hn]. destruct (Hn H) as (ns & [= <-] & Hi).
      apply existsb_beq_bytes_In in Hi. congruence.
  - apply N.eqb_neq in H. split; [intros _ ?; contradiction | reflexivity].
Qed.

Theorem verify_ok_iff_proof c f now :
  verify c f now = Accept <->
  f_present f = true /\ f_parses f = true /\ pins_ok (c_pins c) f /\
  (exists r, role_of (c_vtype c) = Some r /\ x509_ok c r f now) /\ name_ok c f.
Proof.
  unfold verify.
  destruct (f_present f); cbn [negb]; [|split; [discriminate|intros [? _]; discriminate]].
  destruct (f_parses f); cbn [negb]; [|split; [discriminate|intros (_ & ? & _); discriminate]].
  destruct (role_of (c_vtype c)) as [r|];
    [|split; [discriminate|intros (_ & _ & _ & [r [? _]] & _); discriminate]].
  rewrite <- pins_step_accept, <- names_step_iff.
  destruct (pins_step (c_pins c) f) as [|w];
    [|split; [discriminate|intros (_ & _ & ? & _); discriminate]].
  pose proof (x509_verify_iff c r f now) as HX.
  destruct (x509_verify r (dns_name_of c) f now); cbn [negb].
  - split; [intro Hn; repeat split; try tauto; exists r; tauto | tauto].
  - split; [discriminate|]. intros (_ & _ & _ & (r' & [= <-] & Hx) & _).
    apply HX in Hx. discriminate.
Qed.

Corollary verify_refuses_or_accepts c f now : verify c f now = Accept \/ exists w, verify c f now = Refuse w.
Proof. destruct (verify c f now); eauto. Qed.

Theorem single_failure_refuses_proof c f now :
  (f_present f = false -> verify c f now <> Accept) /\
  (f_parses f = false -> verify c f now <> Accept) /\
  (role_of (c_vtype c) = None -> verify c f now <> Accept) /\
  ((exists p, In p (c_pins c) /\ legal_len (blen p) = false) -> verify c f now <> Accept) /\
  (c_pins c <> [] -> (forall p, In p (c_pins c) -> pin_matches f p = false) -> verify c f now <> Accept) /\
  (forall r, role_of (c_vtype c) = Some r -> chain_ok r f = false -> verify c f now <> Accept) /\
  (time_ok f now = false -> verify c f now <> Accept) /\
  (forall r, role_of (c_vtype c) = Some r -> eku_ok r f = false -> verify c f now <> Accept) /\
  (c_htype c = HOST_DNS -> c_expected c <> [] -> f_dns f (c_expected c) = false -> verify c f now <> Accept) /\
  (c_htype c = HOST_RECEPTOR -> (forall names, f_names f = Ok names -> ~ In (c_expected c) names) ->
   verify c f now <> Accept).
Proof.
  repeat split; intros; intro Hv; apply verify_ok_iff_proof in Hv;
    destruct Hv as (Hp & Hq & Hpins & (r0 & Hr & (Hc & Ht & He & Hd)) & Hn).
  - congruence.
  - congruence.
  - congruence.
  - destruct H as (p & Hi & Hl). destruct Hpins as [E|[Hall _]].
    + now rewrite E in Hi.
    + rewrite (Hall _ Hi) in Hl. discriminate.
  - destruct Hpins as [E|(_ & p & Hi & Hm)]; [contradiction|]. rewrite (H0 _ Hi) in Hm. discriminate.
  - congruence.
  - congruence.
  - congruence.
  - rewrite (Hd H H0) in H1. discriminate.
  - destruct (Hn H) as (names & Hok & Hi). exact (H0 _ Hok Hi).
Qed.

(* Past the checks that need neither pins nor chain, the verdict is the pin step's refusal, or
   else that of the chain, or else that of the names. *)
Lemma verify_staged c f r now :
  f_present f = true -> f_parses f = true -> role_of (c_vtype c) = Some r ->
  verify c f now =
  match pins_step (c_pins c) f with
  | Refuse w => Refuse w
  | Accept => if x509_verify r (dns_name_of c) f now then names_step c f else Refuse R_X509
  end.
Proof.
  intros Hp Hq Hr. unfold verify. rewrite Hp, Hq, Hr. cbn [negb].
  destruct (pins_step _ _); [|reflexivity]. now destruct (x509_verify _ _ _ _).
Qed.

Lemma verify_class_nocert c f now : f_present f = false -> verify c f now = Refuse R_NOCERT.
Proof. intro H. unfold verify. now rewrite H. Qed.

Lemma verify_class_pinlen c f r now :
  f_present f = true -> f_parses f = true -> role_of (c_vtype c) = Some r ->
  (exists p, In p (c_pins c) /\ legal_len (blen p) = false) -> verify c f now = Refuse R_PINLEN.
Proof.
  intros Hp Hq Hr He. rewrite (verify_staged _ _ _ _ Hp Hq Hr).
  apply (pins_step_pinlen _ f) in He. now rewrite He.
Qed.

(* of all the refusals of [verify] only that of the pin step can have the length class *)
Lemma verify_pinlen_inv c f now :
  verify c f now = Refuse R_PINLEN -> pins_step (c_pins c) f = Refuse R_PINLEN.
Proof.
  unfold verify, names_step.
  destruct (f_present f); [|discriminate]. destruct (f_parses f); [|discriminate].
  destruct (role_of (c_vtype c)); [|discriminate]. cbn [negb].
  destruct (pins_step (c_pins c) f) as [|w]; [|now intros [= ->]].
  destruct (x509_verify _ _ _ _); [|discriminate].
  destruct (c_htype c =? HOST_RECEPTOR); [|discriminate].
  destruct (f_names f) as [ns| |]; try discriminate. destruct (existsb _ ns); discriminate.
Qed.

Lemma time_ok_iff f now : time_ok f now = true <-> f_not_before f <= now <= f_not_after f.
Proof. unfold time_ok. now rewrite andb_true_iff, !N.leb_le. Qed.

(* outside the validity window the verifier refuses whatever else holds ... *)
Theorem verify_outside_window_refuses c f now :
  now < f_not_before f \/ f_not_after f < now -> verify c f now <> Accept.
Proof.
  intros H Hv. apply verify_ok_iff_proof in Hv.
  destruct Hv as (_ & _ & _ & [r [_ (_ & Ht & _)]] & _).
  apply time_ok_iff in Ht. lia.
Qed.

(* ... and the verdict depends on the time of the call only through "inside the window or not":
   nothing else about the moment the verifier (or the TLS config) was built or called matters *)
Theorem verify_time_only_through_window c f now1 now2 :
  time_ok f now1 = time_ok f now2 -> verify c f now1 = verify c f now2.
Proof. intro H. unfold verify, x509_verify. now rewrite H. Qed.

(* the same verifier, the same certificate, two calls: accepted inside the window, refused with the
   chain's error once the window has passed (expiry) *)
Theorem verify_follows_the_clock c f t1 t2 :
  verify c f t1 = Accept -> f_not_after f < t2 -> verify c f t2 = Refuse R_X509.
Proof.
  intros Hv Ht. apply verify_ok_iff_proof in Hv.
  destruct Hv as (Hp & Hq & Hpins & (r & Hr & _) & _).
  apply pins_step_accept in Hpins. rewrite (verify_staged _ _ _ _ Hp Hq Hr), Hpins.
  assert (E : time_ok f t2 = false) by (apply not_true_iff_false; rewrite time_ok_iff; lia).
  unfold x509_verify. now rewrite E, andb_false_r.
Qed.

(* non-vacuity: a good certificate, and each condition broken alone *)
Definition ex_d224 : bytes := repeat 1 28.
Definition ex_d256 : bytes := repeat 2 32.
Definition ex_d384 : bytes := repeat 3 48.
Definition ex_d512 : bytes := repeat 4 64.
Definition ex_facts : facts :=
  mkFacts true true ex_d224 ex_d256 ex_d384 ex_d512 true true 50 200 true true
          (dns_in [str "host.example"%string]) (Ok [str "node-a"%string; str "node-b"%string]).
Definition ex_now : N := 100.
Definition ex_cfg : config := mkCfg VERIFY_SERVER HOST_RECEPTOR (str "node-b"%string) [repeat 9 32; ex_d512].

Example verify_nonvacuous :
  verify ex_cfg ex_facts ex_now = Accept
  /\ verify (mkCfg VERIFY_CLIENT HOST_DNS (str "host.example"%string) [ex_d224]) ex_facts ex_now = Accept
  /\ verify (mkCfg VERIFY_SERVER HOST_RECEPTOR (str "node-c"%string) []) ex_facts ex_now = Refuse R_NAME
  /\ verify (mkCfg VERIFY_SERVER HOST_DNS (str "other.example"%string) []) ex_facts ex_now = Refuse R_X509
  /\ verify (mkCfg 0 HOST_RECEPTOR (str "node-a"%string) []) ex_facts ex_now = Refuse R_VTYPE
  /\ verify (mkCfg VERIFY_SERVER HOST_RECEPTOR (str "node-a"%string) [repeat 9 32]) ex_facts ex_now = Refuse R_PINMISS
  /\ verify (mkCfg VERIFY_SERVER HOST_RECEPTOR (str "node-a"%string) [ex_d256; repeat 9 31]) ex_facts ex_now = Refuse R_PINLEN
  /\ verify (mkCfg VERIFY_SERVER HOST_RECEPTOR (str "node-a"%string) [repeat 9 31; ex_d256]) ex_facts ex_now = Refuse R_PINLEN.
Proof. vm_compute. repeat split; reflexivity. Qed.

Lemma pins_step_any_nil pins f : pins_step_any pins f [] = pins_step pins f.
Proof.
  unfold pins_step_any. destruct (pins_step pins f) as [|w]; [reflexivity|].
  cbn [existsb]. now rewrite andb_false_r.
Qed.

(* a verifier that looks for the pin among all presented certificates: a peer whose own
   certificate matches no pin is accepted as soon as it appends a pinned one to its message *)
Definition stranger_facts : facts :=
  mkFacts true true (repeat 5 28) (repeat 6 32) (repeat 7 48) (repeat 8 64) true true 50 200 true true
          (dns_in []) (Ok [str "somebody-else"%string]).

Theorem pin_any_certificate_refuted_proof :
  let c := mkCfg VERIFY_SERVER HOST_RECEPTOR (str "node-a"%string) [repeat 6 32] in
  verify c ex_facts ex_now = Refuse R_PINMISS /\
  ~ pins_ok (c_pins c) ex_facts /\
  verify_any c ex_facts [stranger_facts] ex_now = Accept.
Proof.
  cbv zeta. split; [vm_compute; reflexivity|]. split; [|vm_compute; reflexivity].
  rewrite <- pins_step_accept. vm_compute. discriminate.
Qed.

Lemma decode_fingerprint_len s b : decode_fingerprint s = Some b -> legal_len (blen b) = true.
Proof.
  unfold decode_fingerprint, legal_len. destruct (hex_decode (strip_colons s)) as [x|]; [|discriminate].
  destruct ((blen x =? 32) || (blen x =? 64)) eqn:E; [|discriminate].
  intros [= <-]. apply orb_true_iff in E as [-> | ->]; now rewrite ?orb_true_r.
Qed.

(* every pin a configuration entry can produce has a legal length ... *)
Theorem configured_pins_legal_proof l pins :
  decode_fingerprints l = Some pins -> forall p, In p pins -> legal_len (blen p) = true.
Proof.
  revert pins. induction l as [|s r IH]; intros pins H p Hi; cbn [decode_fingerprints] in H.
  - injection H as <-. destruct Hi.
  - destruct (decode_fingerprint s) as [b|] eqn:E; [|discriminate].
    destruct (decode_fingerprints r) as [t|]; [|discriminate].
    injection H as <-. destruct Hi as [<-|Hi]; [now apply (decode_fingerprint_len s)|now apply (IH t)].
Qed.

(* spelling: case of the hex digits and ':' separators do not matter; anything else is refused *)
Example decode_fingerprint_spellings :
  decode_fingerprint (str "AB:cd:Ef:01:23:45:67:89:ab:cd:ef:01:23:45:67:89:ab:cd:ef:01:23:45:67:89:ab:cd:ef:01:23:45:67:89"%string)
  = decode_fingerprint (str "abcdef0123456789abcdef0123456789abcdef0123456789abcdef0123456789"%string)
  /\ decode_fingerprint (str "abcdef0123456789abcdef0123456789abcdef0123456789abcdef0123456789"%string) <> None
  /\ decode_fingerprint (str "abcd"%string) = None
  /\ decode_fingerprint (str "zz"%string) = None
  /\ decode_fingerprint (str "abc"%string) = None.
Proof. vm_compute. repeat split; try reflexivity; discriminate. Qed.

Lemma accepts_iff v : accepts v = true <-> v = Accept.
Proof. destruct v; cbn; split; congruence. Qed.

(* a client built by GetClientTLSConfig from a verifying profile completes a handshake only with
   a server certificate the verifier accepts *)
Theorem client_handshake_sound p expected htype tc f now :
  p_skip p = false ->
  client_config (Found p) expected htype = Ok (Some tc) ->
  client_handshake tc f now = true ->
  verify (mkCfg VERIFY_SERVER htype expected (p_pins p)) f now = Accept.
Proof.
  intros Hs Hc Hh. unfold client_config in Hc. rewrite Hs in Hc.
  assert (Hv : tc_verifier tc = Some (mkCfg VERIFY_SERVER htype expected (p_pins p))).
  { destruct (htype =? HOST_DNS); [|destruct (htype =? HOST_RECEPTOR)]; now injection Hc as <-. }
  apply andb_true_iff in Hh as [_ Hh]. rewrite Hv in Hh. now apply accepts_iff.
Qed.

(* in receptor-name mode nothing but the verifier decides (in DNS mode crypto/tls' own check is
   conjoined, and only [client_handshake_sound] holds) *)
Theorem client_handshake_receptor_iff p expected tc f now :
  p_skip p = false ->
  client_config (Found p) expected HOST_RECEPTOR = Ok (Some tc) ->
  client_handshake tc f now = true <->
  verify (mkCfg VERIFY_SERVER HOST_RECEPTOR expected (p_pins p)) f now = Accept.
Proof.
  intros Hs Hc. unfold client_config in Hc. rewrite Hs in Hc. injection Hc as <-.
  apply accepts_iff.
Qed.

(* a server that asks for client certificates completes a handshake only if every installed
   verifier accepts *)
Lemma server_handshake_verifiers ts f now :
  server_handshake ts f now = true -> ts_auth ts <> NoClientCert ->
  forall c, In c (ts_verifiers ts) -> verify c f now = Accept.
Proof.
  unfold server_handshake. intros Hh Ha c Hc.
  assert (Hf : forallb (fun c => accepts (verify c f now)) (ts_verifiers ts) = true).
  { destruct (ts_auth ts); [contradiction| |]; now apply andb_true_iff in Hh. }
  rewrite forallb_forall in Hf. apply accepts_iff. auto.
Qed.

Theorem server_handshake_sound sp f now :
  (sp_require sp = true \/ sp_cas sp = true) ->
  server_handshake (server_config sp) f now = true ->
  verify (mkCfg VERIFY_CLIENT HOST_DNS [] (sp_pins sp)) f now = Accept.
Proof.
  intros Hm Hh.
  assert (Hc : ts_auth (server_config sp) <> NoClientCert /\
               In (mkCfg VERIFY_CLIENT HOST_DNS [] (sp_pins sp)) (ts_verifiers (server_config sp))).
  { unfold server_config.
    destruct (sp_require sp); [|destruct (sp_cas sp); [|destruct Hm; discriminate]];
      cbn; split; (discriminate || auto). }
  destruct Hc as [Ha Hi]. exact (server_handshake_verifiers _ _ _ Hh Ha _ Hi).
Qed.

Definition no_colon (b : bytes) : bool := forallb (fun x => negb (x =? COLON)) b.

Lemma before_colon_app n s : no_colon n = true -> before_colon (n ++ COLON :: s) = n.
Proof.
  induction n as [|b n IH]; intro H; cbn [app before_colon].
  - now rewrite N.eqb_refl.
  - cbn [no_colon forallb] in H. apply andb_true_iff in H as [H1 H2].
    destruct (b =? COLON); [discriminate|]. f_equal. now apply IH.
Qed.

(* repaired tree: the name demanded is the claimed source node *)
Theorem listener_name_is_source a : listener_name a = a_node a.
Proof. reflexivity. Qed.

(* ... and false otherwise: node "a:b" is checked against the name "a" *)
Theorem listener_split_refuted_proof :
  exists a, listener_name_split a <> a_node a /\
            listener_name_split a = str "a"%string /\ a_node a = str "a:b"%string.
Proof.
  exists (mkAddr (str "a:b"%string) (str "svc"%string)). vm_compute. repeat split; try reflexivity. discriminate.
Qed.

Lemma forallb_app_true {A} (g : A -> bool) l1 l2 :
  forallb g (l1 ++ l2) = true -> forallb g l1 = true /\ forallb g l2 = true.
Proof. rewrite forallb_app, andb_true_iff. tauto. Qed.

(* a listener that requires client certificates accepts a stream only if the client certificate
   passes the configured verification (pins included) AND names the claimed source node *)
Theorem listener_binds_claimed_source_proof sp remote f now :
  sp_require sp = true ->
  server_handshake (listener_config (server_config sp) remote) f now = true ->
  verify (mkCfg VERIFY_CLIENT HOST_DNS [] (sp_pins sp)) f now = Accept /\
  verify (name_verifier (a_node remote)) f now = Accept /\
  exists names, f_names f = Ok names /\ In (a_node remote) names.
Proof.
  intros R Hh. unfold server_config in Hh. rewrite R in Hh.
  assert (Ha : RequireAndVerify <> NoClientCert) by discriminate.
  pose proof (server_handshake_verifiers _ _ _ Hh Ha) as V.
  assert (V2 : verify (name_verifier (a_node remote)) f now = Accept) by (apply V; right; now left).
  split; [apply V; now left|]. split; [exact V2|].
  apply verify_ok_iff_proof in V2. destruct V2 as (_ & _ & _ & _ & Hn). now apply Hn.
Qed.

(* the pinned tree violates it: node "a:b" is accepted with a certificate that names only "a" *)
Definition ex_client_facts (names : list bytes) : facts :=
  mkFacts true true ex_d224 ex_d256 ex_d384 ex_d512 false true 50 200 false true (dns_in []) (Ok names).

Theorem listener_binds_claimed_source_refuted_proof :
  exists sp remote f names now,
    sp_require sp = true /\ f_names f = Ok names /\ ~ In (a_node remote) names /\
    server_handshake (listener_config_pinned (server_config sp) remote) f now = true.
Proof.
  exists (mkSProfile true true []), (mkAddr (str "a:b"%string) (str "svc"%string)),
         (ex_client_facts [str "a"%string]), [str "a"%string], ex_now.
  repeat split; try reflexivity.
  intros [H|[]]. vm_compute in H. discriminate.
Qed.

(* and it drops the pinned client certificates of the profile *)
Theorem listener_pins_refuted_proof :
  exists sp remote f now,
    sp_require sp = true /\ sp_pins sp <> [] /\ ~ pins_ok (sp_pins sp) f /\
    server_handshake (listener_config_pinned (server_config sp) remote) f now = true.
Proof.
  exists (mkSProfile true true [repeat 9 32]), (mkAddr (str "cli"%string) (str "svc"%string)),
         (ex_client_facts [str "cli"%string]), ex_now.
  repeat split; try reflexivity; try discriminate.
  rewrite <- pins_step_accept. vm_compute. discriminate.
Qed.

(* non-vacuity of the listener theorem: the proper certificate of node "a:b" is accepted *)
Example listener_accepts_own_identity :
  server_handshake (listener_config (server_config (mkSProfile true true [ex_d256]))
                                    (mkAddr (str "a:b"%string) (str "svc"%string)))
                   (ex_client_facts [str "a:b"%string]) ex_now = true
  /\ server_handshake (listener_config_pinned (server_config (mkSProfile true true [ex_d256]))
                                    (mkAddr (str "a:b"%string) (str "svc"%string)))
                   (ex_client_facts [str "a:b"%string]) ex_now = false.
Proof. vm_compute. split; reflexivity. Qed.

(* C20: issued certificates verify as exactly the requested node IDs *)
Theorem verify_accepts_exactly_requested dns ips ids v vt r pins x f now :
  san_ok dns ips ids = true -> forallb utf8_valid ids = true ->
  make_san dns ips ids = Ok v ->
  f_names f = names_of_san (Some v) ->
  f_present f = true -> f_parses f = true -> role_of vt = Some r ->
  chain_ok r f = true -> time_ok f now = true -> eku_ok r f = true -> pins_ok pins f ->
  (verify (mkCfg vt HOST_RECEPTOR x pins) f now = Accept <-> In x ids).
Proof.
  intros Hok Hu Hm Hn Hp Hq Hr Hc Ht He Hpins.
  cbn [names_of_san] in Hn. rewrite (san_roundtrip _ _ _ _ Hok Hu Hm) in Hn.
  rewrite verify_ok_iff_proof. unfold x509_ok, name_ok. cbn [c_pins c_vtype c_htype c_expected].
  split.
  - intros (_ & _ & _ & _ & Hname). destruct (Hname eq_refl) as (names & Heq & Hi).
    rewrite Hn in Heq. now injection Heq as <-.
  - intro Hi. repeat split; try assumption.
    + exists r. repeat split; try assumption.
      (* the DNS clause: the mode is receptor, not DNS *)
      discriminate.
    + intros _. exists ids. split; assumption.
Qed.

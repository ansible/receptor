(* Proofs/TraceLoop.v — the traceroute loop ends after at most maxhops+1 probes; a byte counter
   does not when the hop limit is 255 and every probe expires. *)
From Coq Require Import Lia.
From Receptor Require Import Model.TraceLoop.
Open Scope N_scope.

Lemma traceroute_from_is_trace_gen w src target eph : forall n i,
  traceroute_from w src target eph i n = trace_gen (ping w src target eph) i n.
Proof.
  induction n as [|n IH]; intro i; [reflexivity|].
  cbn [traceroute_from trace_gen]. unfold is_expired.
  destruct (ping w src target eph i) as [d|from p|cd|]; try reflexivity.
  destruct (p =? P_EXPIRED); [now rewrite IH|reflexivity].
Qed.

Theorem traceroute_is_trace_gen w src target eph :
  traceroute w src target eph = trace_gen (ping w src target eph) 0 (S (w_maxhops w)).
Proof. unfold traceroute. apply traceroute_from_is_trace_gen. Qed.

Lemma trace_gen_length pingf : forall n i, (length (trace_gen pingf i n) <= n)%nat.
Proof.
  induction n as [|n IH]; intro i; [apply le_n|].
  cbn [trace_gen]. destruct (is_expired (pingf i)); cbn [length].
  - apply le_n_S, IH.
  - apply le_n_S, le_0_n.
Qed.

Lemma trace_gen_all_but_last_expired pingf : forall n i,
  forallb is_expired (removelast (trace_gen pingf i n)) = true.
Proof.
  induction n as [|n IH]; intro i; [reflexivity|].
  cbn [trace_gen]. destruct (is_expired (pingf i)) eqn:E; [|reflexivity].
  specialize (IH (S i)).
  destruct (trace_gen pingf (S i) n) as [|x l] eqn:El; [reflexivity|].
  change (removelast (pingf i :: x :: l)) with (pingf i :: removelast (x :: l)).
  cbn [forallb]. now rewrite E, IH.
Qed.

(* one step of the byte loop, so that no [cbn] has to be kept off [mod] and [<=?] *)
Lemma trace_byte_S pingf max i f :
  trace_byte pingf max i (S f) =
  if i <=? max then
    if is_expired (pingf (N.to_nat i)) then
      let '(l, ended) := trace_byte pingf max ((i + 1) mod 256) f in (pingf (N.to_nat i) :: l, ended)
    else ([pingf (N.to_nat i)], true)
  else ([], true).
Proof. reflexivity. Qed.

Lemma trace_byte_never_ends pingf :
  (forall i, is_expired (pingf i) = true) ->
  forall fuel i, i <= 255 -> snd (trace_byte pingf 255 i fuel) = false.
Proof.
  intros Hexp. induction fuel as [|f IH]; intros i Hi; [reflexivity|].
  rewrite trace_byte_S, (proj2 (N.leb_le i 255) Hi), Hexp.
  assert (Hn : (i + 1) mod 256 <= 255) by (apply N.lt_succ_r, N.mod_lt; discriminate).
  specialize (IH ((i + 1) mod 256) Hn).
  destruct (trace_byte pingf 255 ((i + 1) mod 256) f) as [l e]. exact IH.
Qed.

Lemma trace_byte_same pingf max : max < 255 ->
  forall n i, N.of_nat n + i = max + 1 ->
  trace_byte pingf max i (S n) = (trace_gen pingf (N.to_nat i) n, true).
Proof.
  intros Hm. induction n as [|n IH]; intros i Hi.
  - rewrite trace_byte_S, (proj2 (N.leb_gt i max)) by lia. reflexivity.
  - rewrite trace_byte_S, (proj2 (N.leb_le i max)) by lia.
    cbn [trace_gen]. destruct (is_expired (pingf (N.to_nat i))) eqn:E; [|reflexivity].
    assert (Hmod : (i + 1) mod 256 = i + 1) by (apply N.mod_small; lia).
    rewrite Hmod, (IH (i + 1)) by lia.
    rewrite N.add_1_r, N2Nat.inj_succ. reflexivity.
Qed.

Theorem trace_byte_refuted pingf :
  (forall i, is_expired (pingf i) = true) ->
  (length (trace_gen pingf 0 256) = 256)%nat /\
  forall fuel, snd (trace_byte pingf 255 0 fuel) = false.
Proof.
  intro Hexp. split.
  - assert (H : forall n i, length (trace_gen pingf i n) = n).
    { induction n as [|n IH]; intro i; [reflexivity|]. cbn [trace_gen]. rewrite Hexp. cbn [length]. now rewrite IH. }
    apply H.
  - intro fuel. apply trace_byte_never_ends; [exact Hexp|lia].
Qed.

(* non-vacuity: a ping function whose probes all expire; the loop with hop limit 3 *)
Definition always_expired (i : nat) : ping_res := PErr [110] P_EXPIRED.
Example trace_loop_example :
  (forall i, is_expired (always_expired i) = true) /\
  length (trace_gen always_expired 0 4) = 4%nat /\
  snd (trace_byte always_expired 3 0 6) = true /\
  snd (trace_byte always_expired 255 0 2000) = false.
Proof.
  assert (E : forall i, is_expired (always_expired i) = true) by reflexivity.
  split; [exact E|]. split; [reflexivity|]. split; [reflexivity|].
  apply trace_byte_refuted, E.
Qed.

(* Proofs/Unreach.v — property C16 over Model/Unreach.v: who is told about an undeliverable datagram
   ([recv_sound]: only the sender's socket, as its names read after the notice's JSON round trip),
   and when it is told ([send_arrives]); what a dial makes of it. *)
From Coq Require Import String.
From Receptor Require Import Model.Unreach.
Open Scope N_scope.

(* json_rt and utf8_valid branch alike: where utf8_valid accepts a sequence, its condition is
   json_rt's guard followed by the validity of the remaining bytes, a tail of l one to four
   bytes down (so the recursion is structural) *)
Lemma json_rt_valid : forall l, utf8_valid l = true -> json_rt l = l.
Proof.
  fix IH 1. intros [|b0 r0] Hv; [reflexivity|].
  cbn [json_rt utf8_valid] in *.
  destruct (b0 <? 128).
  { rewrite (IH r0 Hv). reflexivity. }
  destruct r0 as [|b1 r1]; [discriminate|].
  destruct (inr 194 223 b0).
  { apply andb_true_iff in Hv as [-> Hv]. rewrite (IH r1 Hv). reflexivity. }
  destruct r1 as [|b2 r2]; [discriminate|].
  destruct (b0 =? 224).
  { apply andb_true_iff in Hv as [-> Hv]. rewrite (IH r2 Hv). reflexivity. }
  destruct (inr 225 236 b0 || inr 238 239 b0).
  { apply andb_true_iff in Hv as [-> Hv]. rewrite (IH r2 Hv). reflexivity. }
  destruct (b0 =? 237).
  { apply andb_true_iff in Hv as [-> Hv]. rewrite (IH r2 Hv). reflexivity. }
  destruct r2 as [|b3 r3]; [discriminate|].
  destruct (b0 =? 240).
  { apply andb_true_iff in Hv as [-> Hv]. rewrite (IH r3 Hv). reflexivity. }
  destruct (inr 241 243 b0).
  { apply andb_true_iff in Hv as [-> Hv]. rewrite (IH r3 Hv). reflexivity. }
  destruct (b0 =? 244); [|discriminate].
  apply andb_true_iff in Hv as [-> Hv]. rewrite (IH r3 Hv). reflexivity.
Qed.

Lemma find_node_some : forall w a n, find_node w a = Some n -> nd_id n = a /\ In n w.
Proof.
  induction w as [|m w IH]; intros a n H; [discriminate|]. cbn [find_node] in H.
  destruct (beq_bytes (nd_id m) a) eqn:E.
  - inversion H; subst. split; [now apply beq_bytes_eq | now left].
  - destruct (IH _ _ H) as [H1 H2]. split; [assumption | now right].
Qed.

Lemma wf_world_node : forall w a n, wf_world w = true -> find_node w a = Some n -> wf_node n = true.
Proof.
  intros w a n Hw Hf. apply find_node_some in Hf as [_ Hin].
  unfold wf_world in Hw. apply andb_true_iff in Hw as [Hw _].
  exact (proj1 (forallb_forall _ _) Hw n Hin).
Qed.

Lemma wf_node_not_reserved : forall n s, wf_node n = true -> In s (nd_bound n) -> reserved s = false.
Proof.
  intros n s Hw Hin. unfold wf_node in Hw. apply andb_true_iff in Hw as [Hw _].
  apply negb_true_iff, (proj1 (forallb_forall _ _) Hw s Hin).
Qed.

Lemma mem_In : forall s l, mem s l = true <-> In s l.
Proof.
  intros s l. unfold mem. split.
  - intro H. apply existsb_exists in H as [x [Hin Hb]]. apply beq_bytes_eq in Hb. now subst.
  - intros Hin. apply existsb_exists. exists s. split; [assumption | apply beq_bytes_refl].
Qed.

Lemma filter_none : forall s l, mem s l = false -> filter (fun t => beq_bytes s t) l = [].
Proof.
  induction l as [|x l IH]; intros Hm; [reflexivity|].
  unfold mem in Hm. cbn [existsb] in Hm. apply orb_false_iff in Hm as [E Hm].
  cbn [filter]. rewrite E. now apply IH.
Qed.

Lemma filter_single : forall s l, nodupb l = true -> mem s l = true ->
  filter (fun t => beq_bytes s t) l = [s].
Proof.
  induction l as [|x l IH]; intros Hn Hm; [discriminate|].
  cbn [nodupb] in Hn. apply andb_true_iff in Hn as [Hx Hn]. apply negb_true_iff in Hx.
  unfold mem in Hm. cbn [existsb filter] in *. destruct (beq_bytes s x) eqn:E.
  - apply beq_bytes_eq in E. subst x. rewrite (filter_none s l Hx). reflexivity.
  - apply IH; assumption.
Qed.

Lemma receivers_sound : forall n y nd s x, In (nd, s, x) (receivers n y) ->
  nd = nd_id n /\ x = y /\ In s (nd_bound n) /\ nt_fs y = s /\ nt_fn y = nd_id n.
Proof.
  intros n y nd s x H. unfold receivers in H.
  destruct (beq_bytes (nt_fn y) (nd_id n)) eqn:E; [|contradiction].
  apply in_map_iff in H as [t [Ht Hin]]. inversion Ht; subst.
  apply filter_In in Hin as [Hin Hb]. apply beq_bytes_eq in Hb. apply beq_bytes_eq in E. auto.
Qed.

Lemma notify_sound : forall w rt mh a p pb nd s x, In (nd, s, x) (notify w rt mh a p pb) ->
  x = notif_of a p pb /\ nd = json_rt (p_fn p) /\ s = json_rt (p_fs p) /\
  exists n, find_node w nd = Some n /\ In s (nd_bound n).
Proof.
  intros w rt mh a p pb nd s x H. unfold notify in H.
  destruct (travel w (rt a (p_fn p)) mh true (notice_pkt a p)); try contradiction.
  destruct (find_node w at_) as [n|] eqn:Hf; [|contradiction].
  apply receivers_sound in H as (H1 & H2 & H3 & H4 & H5). subst x. cbn in H4, H5.
  destruct (find_node_some _ _ _ Hf) as [Hid _].
  repeat split; try congruence.
  exists n. split; [|assumption]. now rewrite H1, Hid.
Qed.

Lemma send_recv_origin : forall fixed w rt mh hops p f r,
  In r (o_recv (send_gen fixed w rt mh hops p f)) ->
  (exists a pb, In r (notify w rt mh a p pb)) \/
  (exists a a2 pb, In r (notify w rt mh a2 (mkpkt a S_PING (p_fn p) (p_fs p)) pb)).
Proof.
  intros fixed w rt mh hops p f r H. unfold send_gen in H.
  (* [destruct H] closes the outcomes in which nobody is told: there H says that r is in [] *)
  destruct (too_long (p_fs p) || too_long (p_ts p)); [destruct H|].
  destruct (travel w (rt (p_fn p) (p_tn p)) hops true p) as [| |a| | |a pb|a|a]; try destruct H.
  - destruct f; [destruct H|]. unfold after_wait in H. destruct fixed; [|destruct H].
    destruct (beq_bytes (p_fn p) a); [destruct H|]. left. eauto.
  - left. eauto.
  - right. exists a.
    destruct (travel w (rt a (p_fn p)) mh true (mkpkt a S_PING (p_fn p) (p_fs p))); try destruct H.
    eauto.
Qed.

(* who is told, for names that need not be valid UTF-8: sockets are matched against the names as
   they read after the JSON round trip of the notice body *)
Lemma recv_sound : forall fixed w rt mh hops p f nd s x,
  wf_world w = true -> In (nd, s, x) (o_recv (send_gen fixed w rt mh hops p f)) ->
  nd = json_rt (p_fn p) /\ s = json_rt (p_fs p) /\
  (exists n, find_node w nd = Some n /\ In s (nd_bound n)) /\ exists a pb, x = notif_of a p pb.
Proof.
  intros fixed w rt mh hops p f nd s x Hw H.
  apply send_recv_origin in H as [[a [pb H]] | [a [a2 [pb H]]]].
  - apply notify_sound in H as (Hx & Hnd & Hs & Hb). repeat split; try assumption. exists a, pb. exact Hx.
  - (* a ping reply is addressed to the ping service, which is reserved: no socket is bound to it *)
    apply notify_sound in H as (_ & _ & Hs & [n [Hf Hin]]). cbn [p_fs] in Hs. subst s.
    discriminate (wf_node_not_reserved _ _ (wf_world_node _ _ _ Hw Hf) Hin).
Qed.

Theorem notice_to_sender_only : forall fixed w rt mh hops p f nd s x,
  wf_world w = true ->
  utf8_valid (p_fn p) = true -> utf8_valid (p_fs p) = true ->
  utf8_valid (p_tn p) = true -> utf8_valid (p_ts p) = true ->
  In (nd, s, x) (o_recv (send_gen fixed w rt mh hops p f)) ->
  nd = p_fn p /\ s = p_fs p /\
  (exists n, find_node w nd = Some n /\ In s (nd_bound n)) /\
  nt_fn x = p_fn p /\ nt_tn x = p_tn p /\ nt_fs x = p_fs p /\ nt_ts x = p_ts p.
Proof.
  intros fixed w rt mh hops p f nd s x Hw U1 U2 U3 U4 H.
  destruct (recv_sound fixed w rt mh hops p f nd s x Hw H) as (-> & -> & Hb & a & pb & ->).
  cbn [notif_of nt_fn nt_tn nt_fs nt_ts]. rewrite !json_rt_valid in * by assumption.
  repeat split; try reflexivity. exact Hb.
Qed.

Lemma travel_transit : forall w mid hops first p last rest,
  transit_ok w mid hops p = true ->
  exists h', travel w (mid ++ last :: rest) hops first p
             = travel w (last :: rest) h' (first && match mid with [] => true | _ => false end) p.
Proof.
  intros w mid. induction mid as [|a r IH]; intros hops first p last rest H.
  - exists hops. now rewrite andb_true_r.
  - cbn [transit_ok] in H. destruct (find_node w a) as [nd|] eqn:Hf; [|discriminate].
    destruct (handle nd hops p) eqn:Hh; try discriminate.
    destruct (IH (hops - 1) false p last rest H) as [h' E].
    exists h'. cbn [app travel]. rewrite Hf, Hh, andb_false_r. destruct r; exact E.
Qed.

Lemma handle_at_dest : forall d h p,
  fw_eval (nd_fw d) p = FwAccept -> beq_bytes (p_tn p) (nd_id d) = true ->
  reserved (p_ts p) = false ->
  handle d h p = if mem (p_ts p) (nd_bound d) then HDeliver
                 else if beq_bytes (p_fn p) (nd_id d) then HSyncUnknown else HNotice PUnknown.
Proof.
  intros d h p Hfw Ht Hr. unfold handle. rewrite Hfw, Ht.
  unfold reserved in Hr. apply orb_false_iff in Hr as [R1 R2]. now rewrite R1, R2.
Qed.

Lemma handle_publish : forall n h q,
  fw_eval (nd_fw n) q = FwAccept -> p_ts q = S_UNREACH -> beq_bytes (p_tn q) (nd_id n) = true ->
  handle n h q = HPublish.
Proof.
  intros n h q Hfw Hts Ht. unfold handle. rewrite Hts, Hfw, Ht. reflexivity.
Qed.

Lemma handle_drop : forall nd h p, fw_eval (nd_fw nd) p = FwDrop -> handle nd h p = HNothing.
Proof. intros nd h p H. unfold handle. now rewrite H. Qed.

Lemma notify_complete : forall w rt mh a p pb back n,
  wf_world w = true -> utf8_valid (p_fn p) = true -> utf8_valid (p_fs p) = true ->
  rt a (p_fn p) = back ++ [p_fn p] -> transit_ok w back mh (notice_pkt a p) = true ->
  find_node w (p_fn p) = Some n -> fw_eval (nd_fw n) (notice_pkt a p) = FwAccept ->
  mem (p_fs p) (nd_bound n) = true ->
  notify w rt mh a p pb = [(p_fn p, p_fs p, notif_of a p pb)].
Proof.
  intros w rt mh a p pb back n Hw U1 U2 Hrt Htr Hf Hfw Hm. unfold notify. rewrite Hrt.
  destruct (travel_transit w back mh true (notice_pkt a p) (p_fn p) [] Htr) as [h' E]. rewrite E.
  destruct (find_node_some _ _ _ Hf) as [Hid _].
  cbn [travel]. rewrite Hf.
  rewrite handle_publish; [|assumption|reflexivity|cbn; rewrite Hid; apply beq_bytes_refl].
  rewrite Hf. unfold receivers. cbn [nt_fn nt_fs notif_of].
  rewrite (json_rt_valid _ U1), (json_rt_valid _ U2), Hid, beq_bytes_refl.
  pose proof (wf_world_node _ _ _ Hw Hf) as Hn. unfold wf_node in Hn. apply andb_true_iff in Hn as [_ Hn].
  rewrite filter_single by assumption. reflexivity.
Qed.

(* a datagram that gets through to a live node d from another node, addressed to an ordinary
   service, with a notice that can travel back.  If a listener is bound (b) and reads it, it is
   delivered; if nothing listens, or the socket is closed while the datagram waits to be read,
   exactly the sending socket is told "service unknown", with the original fields. *)
Theorem send_arrives : forall w rt mh hops p f b mid back d n,
  wf_world w = true ->
  utf8_valid (p_fn p) = true -> utf8_valid (p_fs p) = true ->
  beq_bytes (p_fn p) (p_tn p) = false ->
  too_long (p_fs p) || too_long (p_ts p) = false ->
  rt (p_fn p) (p_tn p) = mid ++ [p_tn p] -> transit_ok w mid hops p = true ->
  find_node w (p_tn p) = Some d -> fw_eval (nd_fw d) p = FwAccept ->
  reserved (p_ts p) = false -> mem (p_ts p) (nd_bound d) = b ->
  rt (p_tn p) (p_fn p) = back ++ [p_fn p] -> transit_ok w back mh (notice_pkt (p_tn p) p) = true ->
  find_node w (p_fn p) = Some n -> fw_eval (nd_fw n) (notice_pkt (p_tn p) p) = FwAccept ->
  mem (p_fs p) (nd_bound n) = true ->
  let told := mkout SNone None false [(p_fn p, p_fs p, notif_of (p_tn p) p PUnknown)] in
  send w rt mh hops p f
  = if b then match f with FRead => mkout SNone (Some (p_tn p)) false [] | FClosedWaiting => told end
    else told.
Proof.
  intros w rt mh hops p f b mid back d n Hw U1 U2 Hne Hl Hrt Htr Hfd Hfw Hres Hb Hback Htrb Hfn Hfwn Hs told.
  assert (N : notify w rt mh (p_tn p) p PUnknown = o_recv told) by (apply (notify_complete w rt mh (p_tn p) p PUnknown back n); assumption).
  unfold send, send_gen. rewrite Hl, Hrt.
  destruct (travel_transit w mid hops true p (p_tn p) [] Htr) as [h' E]. rewrite E.
  destruct (find_node_some _ _ _ Hfd) as [Hid _].
  cbn [travel]. rewrite Hfd.
  rewrite handle_at_dest; [|assumption|rewrite Hid; apply beq_bytes_refl|assumption].
  rewrite Hb, Hid, Hne. destruct b; [destruct f; [reflexivity|]|].
  - unfold after_wait. rewrite Hne, N. reflexivity.
  - rewrite N. reflexivity.
Qed.

Theorem drop_is_silent : forall fixed w rt mh hops p f mid d rest nd,
  too_long (p_fs p) || too_long (p_ts p) = false ->
  rt (p_fn p) (p_tn p) = mid ++ d :: rest -> transit_ok w mid hops p = true ->
  find_node w d = Some nd -> fw_eval (nd_fw nd) p = FwDrop ->
  send_gen fixed w rt mh hops p f = quiet.
Proof.
  intros fixed w rt mh hops p f mid d rest nd Hl Hrt Htr Hf Hfw. unfold send_gen. rewrite Hl, Hrt.
  destruct (travel_transit w mid hops true p d rest Htr) as [h' E]. rewrite E.
  cbn [travel]. rewrite Hf, handle_drop by assumption. reflexivity.
Qed.

Lemma monitor_match_spec : forall p nd s x, monitor_match p (nd, s, x) = true <->
  nd = p_fn p /\ s = p_fs p /\ nt_pb x = PUnknown /\ nt_tn x = p_tn p /\ nt_ts x = p_ts p.
Proof.
  intros p nd s x. unfold monitor_match. split.
  - intro H. repeat (apply andb_true_iff in H as [H ?]).
    destruct (nt_pb x); try discriminate. repeat split; apply beq_bytes_eq; assumption.
  - intros (-> & -> & -> & <- & <-). rewrite !beq_bytes_refl. reflexivity.
Qed.

Theorem dial_cancelled_by_notice : forall w rt mh p f,
  dial w rt mh p f = DCancelled <->
  o_sync (send w rt mh mh p f) = SNone /\
  exists x, In (p_fn p, p_fs p, x) (o_recv (send w rt mh mh p f)) /\
            nt_pb x = PUnknown /\ nt_tn x = p_tn p /\ nt_ts x = p_ts p.
Proof.
  intros w rt mh p f. unfold dial. split.
  - destruct (o_sync (send w rt mh mh p f)); try discriminate.
    destruct (existsb (monitor_match p) (o_recv (send w rt mh mh p f))) eqn:E.
    + intros _. split; [reflexivity|]. apply existsb_exists in E as [[[nd s] x] [Hin Hm]].
      apply monitor_match_spec in Hm as (-> & -> & H3 & H4 & H5). eauto.
    + destruct (o_deliv (send w rt mh mh p f)); discriminate.
  - intros [Hs [x [Hin (H3 & H4 & H5)]]]. rewrite Hs.
    assert (E : existsb (monitor_match p) (o_recv (send w rt mh mh p f)) = true).
    { apply existsb_exists. exists (p_fn p, p_fs p, x). split; [assumption|].
      apply monitor_match_spec. auto. }
    now rewrite E.
Qed.

Definition ex_rt : routing := line_route [str "a"; str "b"].
Definition ex_world (bound_b : list name) : list node :=
  [mknode (str "a") [str "src"; str "other"] []; mknode (str "b") bound_b []].
Definition ex_pkt : pkt := mkpkt (str "a") (str "src") (str "b") (str "tgt").

(* pinned tree: the socket is closed while the datagram waits; nobody read it, nobody is told *)
Theorem closed_while_waiting_pinned_refuted :
  wf_world (ex_world [str "tgt"]) = true /\
  send_pinned (ex_world [str "tgt"]) ex_rt 30 30 ex_pkt FClosedWaiting = quiet /\
  send (ex_world [str "tgt"]) ex_rt 30 30 ex_pkt FClosedWaiting
  = mkout SNone None false [(str "a", str "src", notif_of (str "b") ex_pkt PUnknown)].
Proof. vm_compute. auto. Qed.

(* a sending service whose name is not valid UTF-8: its own socket is told nothing and the socket
   bound to the replacement-character spelling of the name is told instead *)
Definition bad_name : name := [255; 254].
Definition twin_name : name := json_rt bad_name.
Theorem non_utf8_sender_refuted :
  let w := [mknode (str "a") [bad_name; twin_name] []; mknode (str "b") [] []] in
  let p := mkpkt (str "a") bad_name (str "b") (str "tgt") in
  wf_world w = true /\ utf8_valid bad_name = false /\
  exists x, o_recv (send w ex_rt 30 30 p FRead) = [(str "a", twin_name, x)] /\ twin_name <> bad_name.
Proof. vm_compute. repeat split; try reflexivity. eexists. split; [reflexivity | discriminate]. Qed.

(* a dial to an unbound service whose name is not valid UTF-8 is not cancelled: the notice names
   the JSON reading of the service, which the dial's monitor does not match *)
Theorem non_utf8_target_dial_refuted :
  let w := [mknode (str "a") [str "eph"] []; mknode (str "b") [] []] in
  let p := mkpkt (str "a") (str "eph") (str "b") [110; 111; 255] in
  wf_world w = true /\ dial w ex_rt 30 p FRead = DTimesOut.
Proof. vm_compute. auto. Qed.

(* non-vacuity of the hypotheses of send_arrives (nothing bound) on a three-node line with an
   unrelated socket everywhere *)
Example unknown_service_hypotheses_hold :
  let w := [mknode (str "a") [str "src"; str "x"] []; mknode (str "m") [str "y"] [mkrule None None None (Some (str "blk")) FwDrop];
            mknode (str "b") [str "z"] []] in
  let rt := line_route [str "a"; str "m"; str "b"] in
  let p := mkpkt (str "a") (str "src") (str "b") (str "tgt") in
  wf_world w = true /\ rt (p_fn p) (p_tn p) = [str "a"; str "m"] ++ [p_tn p] /\
  transit_ok w [str "a"; str "m"] 30 p = true /\
  rt (p_tn p) (p_fn p) = [str "b"; str "m"] ++ [p_fn p] /\
  transit_ok w [str "b"; str "m"] 30 (notice_pkt (p_tn p) p) = true /\
  send w rt 30 30 p FRead = mkout SNone None false [(str "a", str "src", notif_of (str "b") p PUnknown)].
Proof. vm_compute. repeat split; reflexivity. Qed.

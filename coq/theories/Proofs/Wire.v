(* Proofs/Wire.v — the datagram codec of Model/Wire.v.  Each field of a packet (8-byte service
   name, 64-bit name hash) survives its round trip in both directions; a packet is a 4-byte header,
   four 8-byte fields and the payload, and both the reader's slices and the forwarder's rewriting
   are read off that shape. *)
From Coq Require Import String PeanoNat Lia.
From Receptor Require Import Base.ListFacts Base.AMap Model.Wire.
Open Scope N_scope.

Lemma firstn_repeat {A} (a : A) n m : firstn n (repeat a m) = repeat a (Nat.min n m).
Proof.
  revert m; induction n as [|n IH]; intros [|m]; cbn [firstn repeat Nat.min]; try reflexivity.
  f_equal. apply IH.
Qed.

Lemma pad8_eq s : pad8 s = firstn 8 s ++ repeat 0 (8 - length s).
Proof. unfold pad8. rewrite firstn_app, firstn_repeat. do 2 f_equal. lia. Qed.

Lemma pad8_short s : (length s <= 8)%nat -> pad8 s = s ++ repeat 0 (8 - length s).
Proof. intro H. rewrite pad8_eq, firstn_all2 by exact H. reflexivity. Qed.

Lemma pad8_length s : length (pad8 s) = 8%nat.
Proof. unfold pad8. rewrite firstn_length, app_length, repeat_length. lia. Qed.

Lemma strip_nul_app_zeros s k : strip_nul (s ++ repeat 0 k) = strip_nul s.
Proof.
  induction s as [|x s IH]; cbn [app strip_nul].
  - induction k as [|k IHk]; cbn [repeat strip_nul]; [reflexivity|].
    rewrite IHk. reflexivity.
  - rewrite IH. reflexivity.
Qed.

Lemma strip_nul_nonzero s :
  forallb (fun b => negb (b =? 0)) s = true -> strip_nul s = s.
Proof.
  induction s as [|x s IH]; cbn [forallb strip_nul]; intro H; [reflexivity|].
  apply andb_true_iff in H as [Hx Hs]. rewrite (IH Hs).
  destruct s as [|y s']; [|reflexivity].
  destruct (x =? 0); [discriminate|reflexivity].
Qed.

Lemma strip_pad_id s : svc_ok s = true -> strip_nul (pad8 s) = s.
Proof.
  unfold svc_ok, blen. intro H. apply andb_true_iff in H as [L NZ].
  apply andb_true_iff in L as [_ L]. apply N.leb_le in L.
  rewrite pad8_short by lia. rewrite strip_nul_app_zeros. apply strip_nul_nonzero, NZ.
Qed.

Lemma strip_nul_decomp x : exists k, x = strip_nul x ++ repeat 0 k.
Proof.
  induction x as [|a x [k IH]]; cbn [strip_nul].
  - exists 0%nat. reflexivity.
  - destruct (strip_nul x) as [|b r] eqn:E.
    + destruct (a =? 0) eqn:Ea.
      * exists (S k). cbn [app repeat]. apply N.eqb_eq in Ea. subst a. f_equal. exact IH.
      * exists k. cbn [app]. f_equal. exact IH.
    + exists k. cbn [app]. f_equal. exact IH.
Qed.

(* a received 8-byte field is reproduced exactly when the name is written again *)
Lemma pad_strip_id x : length x = 8%nat -> pad8 (strip_nul x) = x.
Proof.
  intro L. destruct (strip_nul_decomp x) as [k E].
  pose proof (f_equal (@length N) E) as Lk. rewrite app_length, repeat_length in Lk.
  rewrite pad8_short by lia. replace (8 - length (strip_nul x))%nat with k by lia.
  symmetry. exact E.
Qed.

(* the 8-byte boundary, and why NULs are excluded *)
Example svc_ok_eight : svc_ok (str "abcdefgh"%string) = true
                       /\ strip_nul (pad8 (str "abcdefgh"%string)) = str "abcdefgh"%string.
Proof. split; reflexivity. Qed.
Example svc_ok_one : svc_ok [255] = true /\ strip_nul (pad8 [255]) = [255].
Proof. split; reflexivity. Qed.
Example nine_bytes_cut : svc_ok (str "abcdefghi"%string) = false
                         /\ strip_nul (pad8 (str "abcdefghi"%string)) = str "abcdefgh"%string.
Proof. split; reflexivity. Qed.
Example trailing_nul_lost : svc_ok [97; 0] = false /\ strip_nul (pad8 [97; 0]) = [97].
Proof. split; reflexivity. Qed.
Example inner_nul_kept : strip_nul (pad8 [97; 0; 98]) = [97; 0; 98].
Proof. reflexivity. Qed.
Example empty_name_is_all_nul : pad8 [] = pad8 [0; 0] /\ strip_nul (pad8 [0; 0]) = [].
Proof. split; reflexivity. Qed.

(* 256^k by recursion on the width, as [be_enc] and [be_dec] go; [p256 8] is [two64] *)
Fixpoint p256 (k : nat) : N := match k with O => 1 | S k' => 256 * p256 k' end.

Lemma p256_pos k : 0 < p256 k.
Proof. induction k; cbn [p256]; lia. Qed.

Lemma be_enc_length k n : length (be_enc k n) = k.
Proof.
  revert n; induction k as [|k IH]; intro n; cbn [be_enc]; [reflexivity|].
  rewrite app_length, IH. cbn [length]. lia.
Qed.

Lemma be_dec_app a b acc : be_dec (a ++ b) acc = be_dec b (be_dec a acc).
Proof. revert acc; induction a as [|x a IH]; intro acc; cbn [app be_dec]; [reflexivity|apply IH]. Qed.

Lemma be_dec_enc k n acc : be_dec (be_enc k n) acc = acc * p256 k + n mod p256 k.
Proof.
  revert n acc; induction k as [|k IH]; intros n acc; cbn [be_enc p256].
  - cbn [be_dec]. rewrite N.mod_1_r. lia.
  - rewrite be_dec_app, IH. cbn [be_dec].
    pose proof (p256_pos k) as Hp.
    rewrite (N.mod_mul_r n 256 (p256 k)) by lia. lia.
Qed.

Lemma be_dec_enc8 n : n < two64 -> be_dec (be_enc 8 n) 0 = n.
Proof.
  intro H. rewrite be_dec_enc. change (p256 8) with two64. rewrite N.mod_small by exact H.
  reflexivity.
Qed.

Lemma bytes_ok_app a b : bytes_ok (a ++ b) = true <-> bytes_ok a = true /\ bytes_ok b = true.
Proof. unfold bytes_ok. rewrite forallb_app. apply andb_true_iff. Qed.

Lemma be_enc_dec k b : length b = k -> bytes_ok b = true -> be_enc k (be_dec b 0) = b.
Proof.
  (* from the right: [be_enc] peels off the last byte *)
  intros <-. induction b as [|x b IH] using rev_ind; intro H; [reflexivity|].
  apply bytes_ok_app in H as [Hb Hx]. unfold bytes_ok in Hx. cbn [forallb] in Hx.
  apply andb_true_iff in Hx as [Hx _]. apply N.ltb_lt in Hx.
  rewrite app_length. cbn [length]. rewrite Nat.add_1_r. cbn [be_enc].
  rewrite be_dec_app. cbn [be_dec].
  replace ((be_dec b 0 * 256 + x) / 256) with (be_dec b 0).
  2:{ apply N.div_unique with (r := x); lia. }
  replace ((be_dec b 0 * 256 + x) mod 256) with x.
  2:{ apply N.mod_unique with (q := be_dec b 0); lia. }
  rewrite (IH Hb). reflexivity.
Qed.

Lemma be_dec_lt b : bytes_ok b = true -> be_dec b 0 < p256 (length b).
Proof.
  intro H. pose proof (be_dec_enc (length b) (be_dec b 0) 0) as E.
  rewrite (be_enc_dec _ b eq_refl H) in E. rewrite E.
  apply N.mod_lt. pose proof (p256_pos (length b)). lia.
Qed.

(* one step of a cursor over the fields of b *)
Lemma skipn_field {A} (b a r : list A) k n :
  skipn k b = a ++ r -> length a = n -> firstn n (skipn k b) = a /\ skipn (k + n) b = r.
Proof.
  intros E L. rewrite <- skipn_skipn, E.
  split; [apply firstn_app_exact|apply skipn_app_exact]; exact L.
Qed.

Lemma packet_fields (h a1 a2 a3 a4 d : bytes) :
  length h = 4%nat -> length a1 = 8%nat -> length a2 = 8%nat -> length a3 = 8%nat ->
  length a4 = 8%nat ->
  let b := h ++ a1 ++ a2 ++ a3 ++ a4 ++ d in
  firstn 8 (skipn 4 b) = a1 /\ firstn 8 (skipn 12 b) = a2 /\ firstn 8 (skipn 20 b) = a3 /\
  firstn 8 (skipn 28 b) = a4 /\ skipn 36 b = d /\ length b = (36 + length d)%nat.
Proof.
  intros Lh L1 L2 L3 L4 b.
  destruct (skipn_field b h _ 0 4 eq_refl Lh) as [_ S4].
  destruct (skipn_field b a1 _ 4 8 S4 L1) as [F1 S12].
  destruct (skipn_field b a2 _ 12 8 S12 L2) as [F2 S20].
  destruct (skipn_field b a3 _ 20 8 S20 L3) as [F3 S28].
  destruct (skipn_field b a4 _ 28 8 S28 L4) as [F4 S36].
  repeat split; try assumption. subst b. rewrite !app_length. lia.
Qed.

Lemma chop {A} n (l : list A) : (n <= length l)%nat -> exists a r, l = a ++ r /\ length a = n.
Proof.
  intro H. exists (firstn n l), (skipn n l).
  split; [symmetry; apply firstn_skipn|apply firstn_length_le, H].
Qed.

Lemma packet_shape (b : bytes) : (36 <= length b)%nat ->
  exists h a1 a2 a3 a4 d, b = h ++ a1 ++ a2 ++ a3 ++ a4 ++ d /\ length h = 4%nat /\
    length a1 = 8%nat /\ length a2 = 8%nat /\ length a3 = 8%nat /\ length a4 = 8%nat.
Proof.
  intro L.
  destruct (chop 4 b) as (h & r0 & -> & Lh); [lia|]. rewrite app_length in L.
  destruct (chop 8 r0) as (a1 & r1 & -> & L1); [lia|]. rewrite app_length in L.
  destruct (chop 8 r1) as (a2 & r2 & -> & L2); [lia|]. rewrite app_length in L.
  destruct (chop 8 r2) as (a3 & r3 & -> & L3); [lia|]. rewrite app_length in L.
  destruct (chop 8 r3) as (a4 & d & -> & L4); [lia|].
  exists h, a1, a2, a3, a4, d. auto 6.
Qed.

(* translateDataToMessage on a packet given by its parts *)
Lemma decode_packet t (h a1 a2 a3 a4 d : bytes) :
  length h = 4%nat -> length a1 = 8%nat -> length a2 = 8%nat -> length a3 = 8%nat ->
  length a4 = 8%nat ->
  decode_msg t (h ++ a1 ++ a2 ++ a3 ++ a4 ++ d) =
  match lookup (be_dec a1 0) t, lookup (be_dec a2 0) t with
  | Some f, Some to => DOk {| m_from := f; m_fsvc := strip_nul a3; m_to := to;
                              m_tsvc := strip_nul a4; m_hops := nth 1 h 0; m_data := d |}
  | _, _ => DNoHash
  end.
Proof.
  intros Lh L1 L2 L3 L4.
  destruct (packet_fields h a1 a2 a3 a4 d Lh L1 L2 L3 L4) as (F1 & F2 & F3 & F4 & F5 & F6).
  unfold decode_msg, blen. rewrite F1, F2, F3, F4, F5, F6, app_nth1 by lia.
  rewrite (proj2 (N.ltb_ge _ 36)) by lia.
  destruct (lookup (be_dec a1 0) t), (lookup (be_dec a2 0) t); reflexivity.
Qed.

Lemma decode_ok_inv t b m :
  decode_msg t b = DOk m -> (36 <= length b)%nat /\ m_hops m = nth 1 b 0.
Proof.
  unfold decode_msg, blen. intro D. destruct (_ <? 36) eqn:E in D; [discriminate|].
  destruct (lookup _ t); [|discriminate]. destruct (lookup _ t); [|discriminate].
  injection D as <-. apply N.ltb_ge in E. split; [lia|reflexivity].
Qed.

Lemma canon_idem self name : canon self (canon self name) = canon self name.
Proof.
  unfold canon. destruct (is_localhost name) eqn:E.
  - destruct (is_localhost self); reflexivity.
  - rewrite E. reflexivity.
Qed.

Lemma canon_plain self name : is_localhost name = false -> canon self name = name.
Proof. unfold canon. intros ->. reflexivity. Qed.

Example localhost_spellings :
  is_localhost (str "localhost"%string) = true /\ is_localhost (str "LocalHOST"%string) = true /\
  is_localhost (hx "6c6f63616c686fc5bf74"%string) = true /\      (* "localhoſt", U+017F *)
  is_localhost (str "localhost1"%string) = false /\ is_localhost (str "localhos"%string) = false.
Proof. repeat split; reflexivity. Qed.

Lemma lookup_app h t u :
  lookup h (t ++ u) = match lookup h t with Some v => Some v | None => lookup h u end.
Proof.
  induction t as [|[k v] t IH]; cbn [app lookup]; [reflexivity|].
  destruct (k =? h); [reflexivity|apply IH].
Qed.

(* [lookup] unfolds to [aget] of Base/AMap.v *)
Lemma lookup_In h t v : lookup h t = Some v -> In (h, v) t.
Proof. exact (aget_In t h v). Qed.

Section WithHash.
  Variable hash : bytes -> N.
  (* inside the section the model's functions are written without [hash]; [Wire.f] is [f] itself *)
  Notation hash64 := (hash64 hash).
  Notation add_name := (add_name hash).
  Notation encode_msg := (encode_msg hash).
  Notation tbl_wf := (tbl_wf hash).
  Notation hash_inj_on := (hash_inj_on hash).

  Lemma hash64_lt name : hash64 name < two64.
  Proof. unfold Wire.hash64. apply N.mod_lt. discriminate. Qed.

  Lemma tbl_wf_nil self : tbl_wf self [].
  Proof. intros h n []. Qed.

  Lemma tbl_wf_add self t name : tbl_wf self t -> tbl_wf self (snd (add_name self t name)).
  Proof.
    intros W h n. unfold Wire.add_name, add_hash. cbn [snd].
    destruct (lookup (hash64 (canon self name)) t); [apply W|].
    intro H. apply in_app_or in H as [H|H]; [apply W, H|].
    destruct H as [H|[]]. injection H as <- <-. split; [reflexivity|apply canon_idem].
  Qed.

  (* AddNameHash never changes an entry: the first name under a hash wins *)
  Lemma lookup_add_keep self t name h v :
    lookup h t = Some v -> lookup h (snd (add_name self t name)) = Some v.
  Proof.
    intro H. unfold Wire.add_name, add_hash. cbn [snd].
    destruct (lookup (hash64 (canon self name)) t); [exact H|].
    rewrite lookup_app, H. reflexivity.
  Qed.

  Lemma lookup_add_same self t name :
    exists v, lookup (hash64 (canon self name)) (snd (add_name self t name)) = Some v
              /\ (lookup (hash64 (canon self name)) t = None -> v = canon self name).
  Proof.
    unfold Wire.add_name, add_hash. cbn [snd].
    destruct (lookup (hash64 (canon self name)) t) as [v|] eqn:E.
    - exists v. split; [exact E|discriminate].
    - exists (canon self name). rewrite lookup_app, E. cbn [lookup]. rewrite N.eqb_refl.
      split; reflexivity.
  Qed.

  Lemma add_name_resolves self names t name :
    hash_inj_on names -> tbl_wf self t -> incl (tbl_names t) names -> In (canon self name) names ->
    lookup (hash64 (canon self name)) (snd (add_name self t name)) = Some (canon self name).
  Proof.
    intros I W Ht Hn. destruct (lookup_add_same self t name) as (v & E & V). rewrite E. f_equal.
    destruct (lookup (hash64 (canon self name)) t) as [v'|] eqn:L; [|apply V; reflexivity].
    (* the hash was taken: by a name with the same hash, which can only be this name *)
    rewrite (lookup_add_keep self t name _ _ L) in E. injection E as <-.
    apply lookup_In in L. destruct (W _ _ L) as [Hh _].
    apply I; [apply Ht, (in_map snd _ _ L)|exact Hn|symmetry; exact Hh].
  Qed.

  Lemma names_add self t name :
    incl (tbl_names (snd (add_name self t name))) (canon self name :: tbl_names t).
  Proof.
    unfold Wire.add_name, add_hash, tbl_names. cbn [snd].
    destruct (lookup (hash64 (canon self name)) t).
    - intros x Hx. right. exact Hx.
    - rewrite map_app. cbn [map snd]. intros x Hx. apply in_app_or in Hx as [Hx|[<-|[]]].
      + right. exact Hx.
      + left. reflexivity.
  Qed.

  Lemma tbl_wf_add_names self names t : tbl_wf self t -> tbl_wf self (add_names hash self t names).
  Proof.
    revert t; induction names as [|n r IH]; intros t W; cbn [add_names]; [exact W|].
    apply IH, tbl_wf_add, W.
  Qed.

  Lemma lookup_add_names_keep self names t h v :
    lookup h t = Some v -> lookup h (add_names hash self t names) = Some v.
  Proof.
    revert t; induction names as [|n r IH]; intros t H; cbn [add_names]; [exact H|].
    apply IH, lookup_add_keep, H.
  Qed.

  Lemma add_names_resolve self names : hash_inj_on names ->
    forall l t, tbl_wf self t -> incl (tbl_names t) names -> incl (map (canon self) l) names ->
    forall n, In n l -> lookup (hash64 (canon self n)) (add_names hash self t l) = Some (canon self n).
  Proof.
    intro I. induction l as [|a l IH]; intros t W Ht Hl n Hn; [destruct Hn|].
    cbn [add_names]. apply incl_cons_inv in Hl as [Ha Hl]. destruct Hn as [<-|Hn].
    - apply lookup_add_names_keep, (add_name_resolves self names); assumption.
    - apply IH; [apply tbl_wf_add, W| |exact Hl|exact Hn].
      intros x Hx. apply names_add in Hx as [<-|Hx]; [exact Ha|apply Ht, Hx].
  Qed.

  Lemma add_names_known self ns :
    hash_inj_on (map (canon self) (self :: ns)) ->
    forall n, In n (self :: ns) ->
      lookup (hash64 (canon self n)) (add_names hash self (init_tbl hash self) ns) = Some (canon self n).
  Proof.
    intro I. change (add_names hash self (init_tbl hash self) ns) with (add_names hash self [] (self :: ns)).
    apply (add_names_resolve self _ I); [apply tbl_wf_nil|intros x []|apply incl_refl].
  Qed.

  Lemma encode_fields self m :
    let b := encode_msg self m in
    firstn 8 (skipn 4 b) = be_enc 8 (hash64 (canon self (m_from m))) /\
    firstn 8 (skipn 12 b) = be_enc 8 (hash64 (canon self (m_to m))) /\
    firstn 8 (skipn 20 b) = pad8 (m_fsvc m) /\ firstn 8 (skipn 28 b) = pad8 (m_tsvc m) /\
    skipn 36 b = m_data m /\ length b = (36 + length (m_data m))%nat.
  Proof.
    apply (packet_fields [0; m_hops m; 0; 0]); try reflexivity;
      try apply be_enc_length; apply pad8_length.
  Qed.

  Theorem encode_len self m : length (encode_msg self m) = (36 + length (m_data m))%nat.
  Proof. apply encode_fields. Qed.

  (* forwardMessage's hop byte: written into the packet, or set in the message before encoding *)
  Lemma encode_set_hops self m k : encode_msg self (set_hops m k) = set_byte1 (encode_msg self m) k.
  Proof. reflexivity. Qed.

  (* what the sender wrote is what a receiver that knows the two names reads: for EVERY payload *)
  Theorem decode_encode self t m :
    lookup (hash64 (canon self (m_from m))) t = Some (canon self (m_from m)) ->
    lookup (hash64 (canon self (m_to m))) t = Some (canon self (m_to m)) ->
    svc_ok (m_fsvc m) = true -> svc_ok (m_tsvc m) = true ->
    decode_msg t (encode_msg self m) = DOk (canon_msg self m).
  Proof.
    intros Hf Ht Sf St. unfold Wire.encode_msg.
    rewrite decode_packet by (try reflexivity; try apply be_enc_length; apply pad8_length).
    rewrite !be_dec_enc8 by apply hash64_lt.
    rewrite Hf, Ht, (strip_pad_id _ Sf), (strip_pad_id _ St). reflexivity.
  Qed.

  (* forwardMessage re-encodes the decoded packet: whatever hop value it writes, every other
     byte of the packet it received is reproduced (header bytes 0, 2, 3 are zero in every packet
     made by translateDataFromMessage; byte 0 is the message type that led here) *)
  Theorem reencode_decoded self t b m k :
    tbl_wf self t -> bytes_ok b = true -> decode_msg t b = DOk m ->
    nth 0 b 0 = 0 -> nth 2 b 0 = 0 -> nth 3 b 0 = 0 ->
    encode_msg self (set_hops m k) = set_byte1 b k.
  Proof.
    intros W Hb D H0 H2 H3.
    destruct (packet_shape b (proj1 (decode_ok_inv t b m D))) as (h & a1 & a2 & a3 & a4 & d & -> & Lh & L1 & L2 & L3 & L4).
    rewrite decode_packet in D by assumption.
    destruct (lookup (be_dec a1 0) t) as [f|] eqn:Ef; [|discriminate].
    destruct (lookup (be_dec a2 0) t) as [to|] eqn:Et; [|discriminate].
    injection D as <-.
    (* the two names were put into the table under their hashes, in canonical form *)
    apply lookup_In in Ef, Et. destruct (W _ _ Ef) as [Hf Cf], (W _ _ Et) as [Ht Ct].
    apply bytes_ok_app in Hb as [_ Hb]. apply bytes_ok_app in Hb as [B1 Hb].
    apply bytes_ok_app in Hb as [B2 _].
    destruct h as [|h0 [|h1 [|h2 [|h3 [|]]]]]; try discriminate Lh.
    cbn [app nth] in H0, H2, H3. subst h0 h2 h3.
    unfold Wire.encode_msg, set_hops. cbn [m_from m_to m_fsvc m_tsvc m_hops m_data].
    rewrite Cf, Ct, <- Hf, <- Ht, !be_enc_dec, !pad_strip_id by assumption. reflexivity.
  Qed.

  (* ... in particular the forwarded packet is the received one with the hop byte decremented *)
  Corollary forward_preserves self t b m :
    tbl_wf self t -> bytes_ok b = true -> decode_msg t b = DOk m ->
    nth 0 b 0 = 0 -> nth 2 b 0 = 0 -> nth 3 b 0 = 0 ->
    set_byte1 (encode_msg self m) (m_hops m - 1) = set_byte1 b (nth 1 b 0 - 1).
  Proof.
    intros W Hb D H0 H2 H3.
    rewrite <- (proj2 (decode_ok_inv t b m D)), <- encode_set_hops. apply (reencode_decoded self t); assumption.
  Qed.

  (* a packet that is sent carries both service names whole: the 8-byte fields are the names
     followed by NULs only, nothing was cut *)
  Theorem first_hop_names_whole self m p :
    first_hop_packet hash self m = Some p ->
    firstn 8 (skipn 20 p) = m_fsvc m ++ repeat 0 (8 - length (m_fsvc m)) /\
    firstn 8 (skipn 28 p) = m_tsvc m ++ repeat 0 (8 - length (m_tsvc m)) /\
    skipn 36 p = m_data m.
  Proof.
    unfold Wire.first_hop_packet, send_refused, blen. intro H.
    destruct (_ || _) eqn:G in H; [discriminate|].
    apply orb_false_iff in G as [Gf Gt]. apply N.ltb_ge in Gf, Gt.
    replace p with (set_byte1 (encode_msg self m) (m_hops m - 1)) by congruence.
    rewrite <- encode_set_hops.
    destruct (encode_fields self (set_hops m (m_hops m - 1))) as (_ & _ & F3 & F4 & F5 & _).
    rewrite <- !pad8_short by lia. auto.
  Qed.
  (* why the guard is needed: without it a longer name would travel as its first 8 bytes, i.e.
     as ANOTHER service's name *)
  Lemma pad8_long s : (8 <= length s)%nat -> pad8 s = firstn 8 s.
  Proof using hash.
    intro L. rewrite pad8_eq. replace (8 - length s)%nat with 0%nat by lia. apply app_nil_r.
  Qed.
End WithHash.

(* a receiver whose table was filled by AddNameHash reads a message back (Props/C02.v
   C02_decode_encode_mesh): an instance, with a toy injective hash on three names *)
Definition toy_hash (n : bytes) : N := be_dec n 0.
Example decode_encode_instance :
  let ns := [str "node-b"%string; str "c"%string] in
  let m := {| m_from := str "node-b"%string; m_fsvc := str "abcdefgh"%string;
              m_to := str "a"%string; m_tsvc := [1]; m_hops := 30; m_data := [0; 255; 0] |} in
  decode_msg (add_names toy_hash (str "a"%string) (init_tbl toy_hash (str "a"%string)) ns)
             (encode_msg toy_hash (str "node-b"%string) m) = DOk m.
Proof. vm_compute. reflexivity. Qed.

Example overlong_name_would_alias :
  pad8 (str "abcdefghi"%string) = pad8 (str "abcdefgh"%string)
  /\ first_hop_packet toy_hash (str "a"%string)
       {| m_from := str "a"%string; m_fsvc := str "src"%string; m_to := str "b"%string;
          m_tsvc := str "abcdefghi"%string; m_hops := 30; m_data := [] |} = None.
Proof. split; reflexivity. Qed.

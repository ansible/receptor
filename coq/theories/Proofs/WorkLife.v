(* Proofs/WorkLife.v — C13 over Model/WorkLife.v: restart-free runs keep [SInv], whose last clause is that [log_ok]
   accepts the log; accepted logs move forward because [allowed] is a preorder. *)
From Coq Require Import ZArith Lia ZifyBool.
From Receptor Require Import Base.ListFacts Model.Lock Model.WorkLife.
Open Scope N_scope.

Lemma Forall_set_nth {A} (P : A -> Prop) l : forall i x, Forall P l -> P x -> Forall P (set_nth i x l).
Proof.
  induction l as [|h t IH]; intros [|i] x H Hx; simpl; auto; inversion H; subst; constructor; auto.
Qed.

Lemma set_nth_nonempty {A} i (x : A) l : l <> [] -> set_nth i x l <> [].
Proof. destruct l, i; simpl; congruence. Qed.

Lemma stage_le2 s : stage s <= 2.
Proof. unfold stage. now destruct (s =? 0), (s =? 1). Qed.

Lemma rec_eqb_eq a b : rec_eqb a b = true <-> a = b.
Proof.
  destruct a as [s z], b as [s' z']; unfold rec_eqb; simpl. split.
  - intro H. apply andb_true_iff in H as (H1 & H2). apply N.eqb_eq in H1, H2. now subst.
  - intro H. inversion H; subst. now rewrite !N.eqb_refl.
Qed.

Lemma rec_eqb_refl a : rec_eqb a a = true.
Proof. now apply rec_eqb_eq. Qed.

Lemma allowed_spec o n : allowed o n = true <->
  stage (st o) <= stage (st n) /\
  (st o = Succeeded -> st n = Succeeded /\ sz n = sz o) /\
  (stage (st n) <= 1 -> sz o <= sz n).
Proof.
  unfold allowed, Succeeded. split.
  - intro H. apply andb_true_iff in H as (H & H3). apply andb_true_iff in H as (H1 & H2).
    repeat split; try lia.
  - intros (H1 & H2 & H3). apply andb_true_iff; split; [apply andb_true_iff; split|].
    + lia.
    + destruct (st o =? 2) eqn:E; simpl; auto. destruct H2; lia.
    + destruct (stage (st n) <=? 1) eqn:E; simpl; auto. lia.
Qed.

Lemma allowed_refl r : allowed r r = true.
Proof. apply allowed_spec. repeat split; auto; lia. Qed.

Lemma allowed_trans a b c : allowed a b = true -> allowed b c = true -> allowed a c = true.
Proof.
  rewrite !allowed_spec. intros (A1 & A2 & A3) (B1 & B2 & B3). split; [lia|]. split.
  - intro H. destruct (A2 H) as (E1 & E2). destruct (B2 E1) as (E3 & E4). split; [assumption|lia].
  - intro H. assert (H0 : stage (st b) <= 1) by lia. specialize (A3 H0). specialize (B3 H). lia.
Qed.

Definition last_rec (r0 : rec) (log : list entry) : rec := fold_left (fun _ e => snd e) log r0.

Lemma last_rec_snoc r0 log e : last_rec r0 (log ++ [e]) = snd e.
Proof. unfold last_rec. now rewrite fold_left_app. Qed.

Lemma chain_snoc log : forall r0 e,
  chain r0 (log ++ [e]) = chain r0 log && rec_eqb (last_rec r0 log) (snd (fst e)).
Proof.
  induction log as [|[[[b k] o] n] l IH]; intros r0 [[[b' k'] o'] n']; simpl.
  - now rewrite andb_true_r.
  - rewrite IH. simpl. now rewrite andb_assoc.
Qed.

Lemma history_snoc r0 log e : history r0 (log ++ [e]) = history r0 log ++ [snd e].
Proof. unfold history. now rewrite map_app. Qed.

Lemma history_allowed log : forall r0,
  chain r0 log = true -> forallb entry_allowed log = true ->
  forall i j ri rj, (i <= j)%nat ->
  nth_error (history r0 log) i = Some ri -> nth_error (history r0 log) j = Some rj ->
  allowed ri rj = true.
Proof.
  induction log as [|[[[b k] o] n] l IH]; intros r0 Hc Ha i j ri rj Hij Hi Hj.
  - destruct i as [|[|i]], j as [|[|j]]; try discriminate.
    injection Hi as <-. injection Hj as <-. apply allowed_refl.
  - cbn in Hc, Ha. apply andb_true_iff in Hc as (He & Hc). apply andb_true_iff in Ha as (Hon & Ha).
    apply rec_eqb_eq in He. subst o.
    change (history r0 ((b, k, r0, n) :: l)) with (r0 :: history n l) in *.
    destruct i as [|i], j as [|j]; cbn in Hi, Hj.
    + injection Hi as <-. injection Hj as <-. apply allowed_refl.
    + (* from r0 by the first write to n, from there by induction *)
      injection Hi as <-. apply allowed_trans with n; [exact Hon|].
      exact (IH n Hc Ha 0%nat j n rj (Nat.le_0_l j) eq_refl Hj).
    + now apply Nat.nle_succ_0 in Hij.
    + exact (IH n Hc Ha i j ri rj (le_S_n _ _ Hij) Hi Hj).
Qed.

Definition h0 : rec := mkRec Pending 0.

Theorem log_ok_history pinned log : log_ok pinned log = true ->
  forall i j ri rj, (i <= j)%nat ->
  nth_error (history h0 log) i = Some ri -> nth_error (history h0 log) j = Some rj ->
  stage (st ri) <= stage (st rj) /\
  (st ri = Succeeded -> st rj = Succeeded /\ sz rj = sz ri) /\
  (stage (st rj) <= 1 -> sz ri <= sz rj).
Proof.
  intros H i j ri rj Hij Hi Hj. apply andb_true_iff in H as (H & Ha). apply andb_true_iff in H as (Hc & _).
  apply allowed_spec. exact (history_allowed log h0 Hc Ha i j ri rj Hij Hi Hj).
Qed.

Lemma log_snoc pinned log b k o n :
  log_ok pinned log = true -> last_rec h0 log = o ->
  write_ok pinned (b, k, o, n) = true -> allowed o n = true ->
  log_ok pinned (log ++ [(b, k, o, n)]) = true /\ last_rec h0 (log ++ [(b, k, o, n)]) = n.
Proof.
  unfold log_ok. intros H Hl Hw Ha.
  apply andb_true_iff in H as (H & H3). apply andb_true_iff in H as (H1 & H2).
  split; [|apply last_rec_snoc].
  rewrite chain_snoc, !forallb_app, H1, H2, H3. cbn [forallb entry_allowed fst snd].
  fold h0. rewrite Hl, rec_eqb_refl, Hw, Ha. reflexivity.
Qed.

(* every write of the model is an atomic read-modify-write in the sense of C14: the stored
   record afterwards is the update function applied to the stored record before *)
Lemma W_is_atomic_update b k f w : w_dir w = true ->
  FRec (w_file (W b k f w)) =
  a_file (atomic_op (mkA (FRec (w_file w)) [w_file w] []) (0%nat, OUpd f)).
Proof. intro H. unfold W. rewrite H. reflexivity. Qed.

Lemma W_dir b k f w : w_dir (W b k f w) = w_dir w /\ w_indexed (W b k f w) = w_indexed w /\ w_cancels (W b k f w) = w_cancels w.
Proof. unfold W. destruct (w_dir w) eqn:E; simpl; auto. Qed.

(* [W] commutes with the setters of the other fields: a step that writes is a change of those
   fields, then the write *)
Lemma W_set_sub s b k f w : set_sub s (W b k f w) = W b k f (set_sub s w).
Proof. unfold W; cbn. now destruct (w_dir w). Qed.

Lemma W_set_run r b k f w : set_run r (W b k f w) = W b k f (set_run r w).
Proof. unfold W; cbn. now destruct (w_dir w). Qed.

Lemma W_set_pidset p b k f w : set_pidset p (W b k f w) = W b k f (set_pidset p w).
Proof. unfold W; cbn. now destruct (w_dir w). Qed.

Lemma W_set_wdone d b k f w : set_wdone d (W b k f w) = W b k f (set_wdone d w).
Proof. unfold W; cbn. now destruct (w_dir w). Qed.

Lemma W_set_cancels cs b k f w : set_cancels cs (W b k f w) = W b k f (set_cancels cs w).
Proof. unfold W; cbn. now destruct (w_dir w). Qed.

(* what [log_snoc] asks of one write *)
Definition good_write (b : who) (k : wkind) (o n : rec) : Prop :=
  write_ok false (b, k, o, n) = true /\ allowed o n = true.

Lemma allowed_p0 : allowed h0 (wf_pending0 h0) = true.
Proof. reflexivity. Qed.

Lemma allowed_to_final o n : st o <> Succeeded -> stage (st n) = 2 -> allowed o n = true.
Proof.
  intros H1 H2. apply allowed_spec. rewrite H2. split; [apply stage_le2|]. split; [intro; contradiction|].
  intro H. now elim H.
Qed.

Lemma stage_le1_not_succ s : stage s <= 1 -> s <> Succeeded.
Proof. intros H ->. now apply H. Qed.

Lemma good_same o : good_write Daemon KSame o o.
Proof. split; [apply rec_eqb_refl|apply allowed_refl]. Qed.

Lemma good_tick o z : stage (st o) <= 1 -> sz o <= z -> good_write Runner KTick o (wf_tick z o).
Proof.
  intros H1 H2. split.
  - apply andb_true_iff. split; [apply rec_eqb_refl|now apply N.leb_le].
  - apply allowed_spec. split; [exact H1|split; [intro E|intros _; exact H2]].
    now apply stage_le1_not_succ in H1.
Qed.

Lemma good_final ok o z : stage (st o) <= 1 -> sz o <= z -> good_write Runner KFinal o (wf_final ok z o).
Proof.
  intros H1 H2. split.
  - apply andb_true_iff. split; [|now apply N.leb_le]. destruct ok; cbn; now rewrite !N.eqb_refl.
  - apply allowed_to_final; [now apply stage_le1_not_succ|now destruct ok].
Qed.

Lemma good_killed o z : stage (st o) <= 1 -> sz o <= z -> good_write Runner KKilled o (wf_killed z o).
Proof.
  intros H1 H2. split.
  - apply andb_true_iff. split; [apply rec_eqb_refl|now apply N.leb_le].
  - apply allowed_to_final; [now apply stage_le1_not_succ|reflexivity].
Qed.

Lemma good_cancel o : good_write Daemon KCancel o (wf_cancel o).
Proof.
  split; [apply rec_eqb_refl|]. unfold wf_cancel. destruct (st o =? Succeeded) eqn:E; [apply allowed_refl|].
  apply allowed_to_final; [now apply N.eqb_neq|reflexivity].
Qed.

Lemma sz_wf_cancel r : sz (wf_cancel r) = sz r.
Proof. unfold wf_cancel. now destruct (st r =? Succeeded). Qed.

Definition gone (r : rphase) : bool := match r with RGone _ => true | _ => false end.
Definition started (r : rphase) : bool := match r with RNone => false | _ => true end.
Definition pre_spawn (s : spc) : bool :=
  match s with SNew | SWait | SStarting | SLaunch | SStartErr => true | _ => false end.
Definition fresh_sub (s : spc) : bool :=
  match s with SNew | SWait | SStarting | SLaunch => true | _ => false end.

(* the records the file may hold: the initial one until the runner's first write, pending or running
   while it monitors, anything once it has written its result; without a runner only the submit path
   writes - Pending 0 up to the launch, Failed when it gives up *)
Definition file_ok (sub : spc) (run : rphase) (r : rec) : Prop :=
  match run with
  | RNone => if fresh_sub sub then r = h0 else st r = Pending \/ st r = Failed
  | RStart => r = h0
  | RInit | RLoop | RKill | REscalate | RFin _ => stage (st r) <= 1
  | RWrote | RGone _ => True
  end.

(* no runner before the launch, one from the launch on; a recorded pid is that of a launched runner,
   and a live runner has its pid recorded unless the launch is still in progress.  [run] enters only
   through [started] and [runner_alive]: a step of the runner from one live phase to another keeps
   this by conversion (so for [canc_ok]) *)
Definition ctl_ok (sub : spc) (run : rphase) (pidset : bool) : bool :=
  implb (pre_spawn sub) (negb (started run)) && implb (launching sub || pidset) (started run)
  && (pidset || negb (runner_alive run) || launching sub).

(* what a Cancel at each pc knows of the runner: there is or was one where it signals and waits, it is
   gone where Cancel writes, none lives once Cancel has done its part *)
Definition canc_ok (run : rphase) (c : canc) : Prop :=
  match k_pc c with
  | CCheck => True
  | CSignal | CWait => started run = true
  | CWrite => gone run = true
  | CRmDir | CDelIdx | CEnd => runner_alive run = false
  end.

(* [i_log] is what is wanted; the other clauses are what a writer must know of file and runner for
   its write to be allowed *)
Record SInv (w : world) : Prop := mkSInv {
  i_norestart : w_restarted w = false;
  i_file : file_ok (w_sub w) (w_run w) (w_file w);
  i_size : sz (w_file w) <= w_out w;
  i_ctl : ctl_ok (w_sub w) (w_run w) (w_pidset w) = true;
  i_canc : Forall (canc_ok (w_run w)) (w_cancels w);
  i_log : log_ok false (w_log w) = true /\ last_rec h0 (w_log w) = w_file w }.

Lemma ctl_pre sub run p : pre_spawn sub = true -> ctl_ok sub run p = true -> run = RNone /\ p = false.
Proof. intros E H. destruct run, p; try (destruct sub; discriminate). now split. Qed.

Lemma ctl_pid sub run : ctl_ok sub run true = true -> started run = true.
Proof. now destruct sub, run. Qed.

Lemma ctl_nopid sub run : launching sub = false -> ctl_ok sub run false = true -> runner_alive run = false.
Proof. now destruct sub, run. Qed.

Lemma ctl_exit sub run p : runner_alive run = true -> ctl_ok sub run p = true -> ctl_ok sub (RGone false) p = true.
Proof. now destruct run, sub, p. Qed.

Lemma canc_exit run c : runner_alive run = true -> canc_ok run c -> canc_ok (RGone false) c.
Proof. unfold canc_ok. now destruct run, (k_pc c). Qed.

Lemma canc_after kind run : runner_alive run = false -> canc_ok run (mkCanc kind (after_cancel kind)).
Proof. intro H. unfold canc_ok, after_cancel. cbn. now destruct (kind =? 0). Qed.

Lemma sinv0 : SInv world0.
Proof. constructor; cbn; auto. discriminate. Qed.

Lemma stage_h0 : stage (st h0) <= 1.
Proof. discriminate. Qed.

Lemma sinv_W b k f w : let n := f (w_file w) in
  SInv w -> good_write b k (w_file w) n -> sz n <= w_out w -> file_ok (w_sub w) (w_run w) n ->
  SInv (W b k f w).
Proof.
  intros n H (Hw & Ha) Hz Hf. unfold W. destruct (w_dir w); [|exact H].
  destruct H as [Hr _ _ Hc Hk (Hl & Hlast)]. constructor; cbn; try assumption.
  now apply log_snoc.
Qed.

Lemma sinv_exit w : SInv w -> runner_alive (w_run w) = true -> SInv (set_run (RGone false) w).
Proof.
  intros [Hr Hf Hz Hc Hk Hl] Ha. constructor; try assumption.
  - exact I.
  - exact (ctl_exit _ _ _ Ha Hc).
  - exact (Forall_impl _ (fun c => canc_exit _ c Ha) Hk).
Qed.

Lemma sinv_goto i c w : SInv w -> canc_ok (w_run w) c -> SInv (set_cancels (set_nth i c (w_cancels w)) w).
Proof.
  intros [Hr Hf Hz Hc Hk Hl] Hi. constructor; cbn; try assumption. now apply Forall_set_nth.
Qed.

Lemma sinv_pending0 b w : SInv w -> w_file w = h0 -> file_ok (w_sub w) (w_run w) h0 ->
  SInv (W b KPending0 wf_pending0 w).
Proof.
  intros H E Hf. apply sinv_W; [exact H| |apply N.le_0_l|exact Hf].
  rewrite E. split; [reflexivity|exact allowed_p0].
Qed.

Lemma sinv_failed0 w : SInv w -> st (w_file w) <> Succeeded -> file_ok (w_sub w) (w_run w) (mkRec Failed 0) ->
  SInv (W Daemon KFailed0 wf_failed0 w).
Proof.
  intros H E Hf. apply sinv_W; [exact H| |apply N.le_0_l|exact Hf].
  split; [reflexivity|now apply allowed_to_final].
Qed.

(* [SInv] does not mention these fields *)
Lemma sinv_set_child c w : SInv w -> SInv (set_child c w).
Proof. intros []. constructor; assumption. Qed.

Lemma sinv_set_sig b w : SInv w -> SInv (set_sig b w).
Proof. intros []. constructor; assumption. Qed.

Lemma sinv_set_dir b w : SInv w -> SInv (set_dir b w).
Proof. intros []. constructor; assumption. Qed.

Lemma sinv_set_indexed b w : SInv w -> SInv (set_indexed b w).
Proof. intros []. constructor; assumption. Qed.

(* In the three lemmas below the world is given by its fields, so that the clauses of [SInv] compute:
   where a step moves the runner within a class of phases or the submit path within the phases before
   the launch, each clause of the new world is the old one up to conversion ([constructor; assumption]). *)
Lemma sinv_submit fail w : SInv w -> SInv (step false (ASubmit fail) w).
Proof.
  destruct w as [file pidset out sub run child sig wdone cancels restarted dload dir indexed log].
  intro H. pose proof H as [Hr Hf Hz Hc Hk Hl]. simpl in * |-.
  pose proof (fun E => ctl_pre sub run pidset E Hc) as Hpre.
  destruct sub; cbn [step w_sub]; rewrite ?W_set_pidset, ?W_set_sub.
  - (* SNew *) destruct (Hpre eq_refl) as (-> & ->). cbn in Hf.
    apply sinv_pending0; [constructor; assumption|exact Hf|reflexivity].
  - (* SWait *) destruct (Hpre eq_refl) as (-> & ->). cbn in Hf. subst file. destruct fail.
    + apply sinv_failed0; [constructor; simpl; auto|discriminate|now right].
    + apply sinv_pending0; [constructor; simpl; auto|reflexivity..].
  - (* SStarting *) destruct (Hpre eq_refl) as (-> & ->). cbn in Hf.
    apply sinv_pending0; [constructor; assumption|exact Hf|reflexivity].
  - (* SLaunch *) destruct (Hpre eq_refl) as (-> & ->). cbn in Hf. subst file.
    destruct fail; [|destruct cancels; cbn [ctx_cancelled w_cancels]].
    + apply sinv_failed0; [constructor; simpl; auto|discriminate|now right].
    + (* the runner is launched *) constructor; simpl; auto.
    + (* cancelled before the launch *) constructor; simpl; auto.
  - (* SStartErr *) destruct (Hpre eq_refl) as (-> & ->). cbn in Hf.
    apply sinv_failed0; [constructor; assumption| |now right].
    cbn. destruct Hf as [E|E]; rewrite E; discriminate.
  - (* SSpawned: the pid of the runner, which exists, is recorded *)
    apply sinv_W; [|apply good_same|exact Hz|exact Hf].
    constructor; try assumption. destruct run; [discriminate Hc|reflexivity..].
  - (* SDone *) exact H.
Qed.

Lemma sinv_runner choice w : SInv w -> SInv (step false (ARunner choice) w).
Proof.
  destruct w as [file pidset out sub run child sig wdone cancels restarted dload dir indexed log].
  intro H. pose proof H as [Hr Hf Hz Hc Hk Hl]. simpl in * |-.
  destruct run; cbn [step w_run]; rewrite ?W_set_run.
  - (* RNone *) exact H.
  - (* RStart: "Not started yet" *)
    apply sinv_pending0; [|exact Hf|exact stage_h0].
    constructor; try assumption. cbn. rewrite Hf. exact stage_h0.
  - (* RInit *) destruct (choice =? 0); constructor; assumption.
  - (* RLoop *)
    destruct (choice =? 0); [|destruct (choice =? 1); [destruct child|destruct sig]]; try exact H.
    + (* tick *) apply sinv_W; [exact H|now apply good_tick|apply N.le_refl|discriminate].
    + (* the command is over *) constructor; assumption.
    + (* the SIGINT is noticed *) constructor; assumption.
  - (* RKill *) destruct (choice =? 0); [|constructor; assumption].
    apply sinv_W; [|now apply good_killed|apply N.le_refl|exact I].
    apply sinv_exit; [now apply sinv_set_child|reflexivity].
  - (* REscalate *)
    apply sinv_W; [|now apply good_killed|apply N.le_refl|exact I].
    apply sinv_exit; [now apply sinv_set_child|reflexivity].
  - (* RFin *) apply sinv_W; [|now apply good_final|apply N.le_refl|exact I].
    constructor; try assumption. exact I.
  - (* RWrote *) now apply sinv_exit.
  - (* RGone *) exact H.
Qed.

Lemma sinv_cancel i w : SInv w -> SInv (step false (ACancel i) w).
Proof.
  destruct w as [file pidset out sub run child sig wdone cancels restarted dload dir indexed log].
  intro H. pose proof H as [Hr Hf Hz Hc Hk Hl]. simpl in * |-.
  cbn [step]. unfold step_cancel. cbn [w_cancels].
  destruct (nth_error cancels i) as [[kind pc]|] eqn:Hi; [|exact H].
  pose proof (proj1 (Forall_forall _ _) Hk _ (nth_error_In _ _ Hi)) as Hci.
  destruct pc; cbn [k_pc k_kind w_sub w_pidset w_run w_restarted].
  - (* CCheck *) destruct (launching sub) eqn:Hla; [exact H|].
    destruct pidset; apply sinv_goto; try exact H.
    + exact (ctl_pid _ _ Hc).
    + exact (canc_after _ _ (ctl_nopid _ _ Hla Hc)).
  - (* CSignal: there is or was a runner *)
    cbn in Hci. destruct run as [| | | | | | | |[|]]; try discriminate Hci.
    (* RKill, REscalate, RFin, RWrote and the zombie swallow the signal *)
    all: try (apply sinv_goto; [exact H|reflexivity]).
    + (* RStart: no handler yet, the runner dies *) apply sinv_goto; [now apply sinv_exit|reflexivity].
    + (* RInit: the same *) apply sinv_goto; [now apply sinv_exit|reflexivity].
    + (* RLoop: the signal is pending *) apply sinv_goto; [now apply sinv_set_sig|reflexivity].
    + (* RGone true: "already finished" *) apply sinv_goto; [exact H|now apply canc_after].
  - (* CWait *) destruct restarted; [discriminate Hr|]. destruct run; try exact H. now apply sinv_goto.
  - (* CWrite: the runner is gone *)
    cbn in Hci. destruct run as [| | | | | | | |b]; try discriminate Hci.
    rewrite (proj2 (proj2 (W_dir _ _ _ _))), W_set_cancels. apply sinv_W; [|apply good_cancel| |exact I].
    + apply sinv_goto; [exact H|now apply canc_after].
    + cbn. now rewrite sz_wf_cancel.
  - (* CRmDir *) apply sinv_goto; [now apply sinv_set_dir|exact Hci].
  - (* CDelIdx *) apply sinv_goto; [now apply sinv_set_indexed|exact Hci].
  - (* CEnd *) exact H.
Qed.

Lemma sinv_step a w : is_restart a = false -> SInv w -> SInv (step false a w).
Proof.
  intros Ha H.
  destruct a; try discriminate Ha; [now apply sinv_submit|now apply sinv_runner| | | | | |now apply sinv_cancel].
  all: destruct w as [file pidset out sub run child sig wdone cancels restarted dload dir indexed log].
  all: pose proof H as [Hr Hf Hz Hc Hk Hl]; simpl in * |-.
  all: cbn [step w_child w_run w_sub w_indexed w_restarted w_wdone].
  - (* AGrow *) destruct child; try exact H. constructor; try assumption.
    apply N.le_trans with out; [exact Hz|apply N.le_add_r].
  - (* AExit *) destruct child; try exact H. now apply sinv_set_child.
  - (* AReap *) destruct run as [| | | | | | | |[|]]; try exact H. constructor; assumption.
  - (* AWaiter *)
    destruct run as [| | | | | | | |[|]], sub; try exact H. destruct (restarted || wdone); [exact H|].
    rewrite W_set_pidset, W_set_wdone.
    apply sinv_W; [|apply good_same|exact Hz|exact I]. constructor; try assumption. reflexivity.
  - (* ACancelNew *) destruct indexed; [|exact H]. constructor; try assumption.
    apply Forall_app. split; [exact Hk|]. constructor; [exact I|constructor].
Qed.

Lemma run_preserves p (P : world -> Prop) sched :
  (forall a w, In a sched -> P w -> P (step p a w)) -> forall w, P w -> P (run p sched w).
Proof. exact (fold_left_invariant (fun w a => step p a w) P sched). Qed.

Lemma no_restart_In sched a : no_restart sched = true -> In a sched -> is_restart a = false.
Proof. intros H Ha. apply negb_true_iff. exact (proj1 (forallb_forall _ _) H a Ha). Qed.

Lemma sinv_run sched w : no_restart sched = true -> SInv w -> SInv (run false sched w).
Proof. intro Hn. apply run_preserves. intros a s Ha. apply sinv_step. exact (no_restart_In _ _ Hn Ha). Qed.

Lemma run_canc_ok sched i c : no_restart sched = true ->
  nth_error (w_cancels (run false sched world0)) i = Some c -> canc_ok (w_run (run false sched world0)) c.
Proof.
  intros Hn Hi. exact (proj1 (Forall_forall _ _) (i_canc _ (sinv_run sched world0 Hn sinv0)) _ (nth_error_In _ _ Hi)).
Qed.

Theorem model_log_ok sched : no_restart sched = true ->
  log_ok false (w_log (run false sched world0)) = true /\
  last_rec h0 (w_log (run false sched world0)) = w_file (run false sched world0).
Proof. intro H. exact (i_log _ (sinv_run sched world0 H sinv0)). Qed.

(* C13 along every interleaving of the writers (no daemon restart): the three clauses of
   [log_ok_history] for the model's logs *)
Theorem stage_monotone sched : no_restart sched = true ->
  let h := history h0 (w_log (run false sched world0)) in
  forall i j ri rj, (i <= j)%nat -> nth_error h i = Some ri -> nth_error h j = Some rj ->
  stage (st ri) <= stage (st rj).
Proof.
  intros H h i j ri rj Hij Hi Hj.
  exact (proj1 (log_ok_history false _ (proj1 (model_log_ok sched H)) i j ri rj Hij Hi Hj)).
Qed.

Theorem succeeded_absorbing sched : no_restart sched = true ->
  let h := history h0 (w_log (run false sched world0)) in
  forall i j ri rj, (i <= j)%nat -> nth_error h i = Some ri -> nth_error h j = Some rj ->
  st ri = Succeeded -> st rj = Succeeded /\ sz rj = sz ri.
Proof.
  intros H h i j ri rj Hij Hi Hj.
  exact (proj1 (proj2 (log_ok_history false _ (proj1 (model_log_ok sched H)) i j ri rj Hij Hi Hj))).
Qed.

Theorem size_monotone_while_running sched : no_restart sched = true ->
  let h := history h0 (w_log (run false sched world0)) in
  forall i j ri rj, (i <= j)%nat -> nth_error h i = Some ri -> nth_error h j = Some rj ->
  stage (st rj) <= 1 -> sz ri <= sz rj.
Proof.
  intros H h i j ri rj Hij Hi Hj.
  exact (proj2 (proj2 (log_ok_history false _ (proj1 (model_log_ok sched H)) i j ri rj Hij Hi Hj))).
Qed.

(* The facts below hold for all schedules, restarts included.  [split_step], on a world given by its
   fields, reduces [step p a w] and destructs the scrutinee of every remaining [match] (the tests of
   [step], [step_cancel], [W]): one goal per branch of the model.  It closes nothing. *)
Ltac split_step :=
  cbn; unfold step_cancel, W, ctx_cancelled; cbn;
  repeat match goal with |- context [match ?x with _ => _ end] => destruct x; cbn end.

Definition is_cancel_step (a : action) : bool := match a with ACancel _ => true | _ => false end.

(* only a Cancel's own steps touch the directory and the index entry; apart from them the list of
   cancels changes in two ways: a new one is appended, a restart empties it *)
Lemma step_keeps p a w : is_cancel_step a = false ->
  w_dir (step p a w) = w_dir w /\ w_indexed (step p a w) = w_indexed w /\
  (w_cancels (step p a w) = w_cancels w \/
   (exists k, w_cancels (step p a w) = w_cancels w ++ [mkCanc k CCheck]) \/
   (a = ARestart /\ w_cancels (step p a w) = [])).
Proof.
  intro Ha. destruct w as [file pidset out sub run child sig wdone cancels restarted dload dir indexed log].
  destruct a; try discriminate Ha.
  7: { (* ACancelNew *) cbn. destruct indexed; cbn; eauto 6. }
  7: { (* ARestart *) cbn. destruct (dir && indexed); cbn; auto 8. }
  (* the other actions keep all three *)
  all: split; [|split; [|left]]; split_step; reflexivity.
Qed.

(* without a live runner [w_run] changes in two ways: the launch (at SLaunch, if no Cancel has been
   issued) and the reaping of the zombie *)
Lemma step_run p a w : runner_alive (w_run w) = false ->
  w_run (step p a w) = w_run w \/
  (w_sub w = SLaunch /\ w_cancels w = [] /\ w_run (step p a w) = RStart) \/
  (w_run w = RGone false /\ w_run (step p a w) = RGone true).
Proof.
  destruct w as [file pidset out sub run child sig wdone cancels restarted dload dir indexed log].
  cbn. intro Ha. destruct a.
  5: { (* AReap *) destruct run as [| | | | | | | |[|]]; auto. }
  1: { (* ASubmit: the launch *)
       destruct sub, fail; try (left; split_step; reflexivity).
       destruct cancels; [right; left; repeat split; reflexivity|left; reflexivity]. }
  (* the other actions move only a live runner *)
  all: left; destruct run; try discriminate Ha; split_step; reflexivity.
Qed.

(* a Release removes the directory, then the index entry, then ends; a Cancel (kind 0) just ends *)
Definition rel_ok (dir indexed : bool) (c : canc) : Prop :=
  match k_pc c with
  | CDelIdx => dir = false
  | CEnd => k_kind c = 0 \/ (dir = false /\ indexed = false)
  | _ => True
  end.

Definition RInv (w : world) : Prop := Forall (rel_ok (w_dir w) (w_indexed w)) (w_cancels w).

Lemma rel_mono d x d' x' cs : (d = false -> d' = false) -> (x = false -> x' = false) ->
  Forall (rel_ok d x) cs -> Forall (rel_ok d' x') cs.
Proof.
  intros H1 H2 H. eapply Forall_impl; [|exact H]. intros c Hc. unfold rel_ok in *.
  destruct (k_pc c); auto. destruct Hc as [E|(E1 & E2)]; auto.
Qed.

Lemma rel_after kind d x : rel_ok d x (mkCanc kind (after_cancel kind)).
Proof. unfold rel_ok, after_cancel. cbn. destruct (kind =? 0) eqn:E; [left; now apply N.eqb_eq|exact I]. Qed.

Lemma rel_step p a w : RInv w -> RInv (step p a w).
Proof.
  intro H. unfold RInv. destruct (is_cancel_step a) eqn:Ea.
  2: { destruct (step_keeps p a w Ea) as (-> & -> & [-> | [(k & ->) | (_ & ->)]]).
       - exact H.
       - apply Forall_app. split; [exact H|]. repeat constructor.
       - constructor. }
  destruct a as [| | | | | | |i| |]; try discriminate Ea.
  destruct w as [file pidset out sub run child sig wdone cancels restarted dload dir indexed log].
  unfold RInv in H. cbn in H. unfold step, step_cancel. cbn.
  destruct (nth_error cancels i) as [[kind pc]|] eqn:Hi; [|exact H].
  pose proof (proj1 (Forall_forall _ _) H _ (nth_error_In _ _ Hi)) as Hci.
  (* up to the write [rel_ok] asks nothing of the new pc, or it is [after_cancel] *)
  destruct pc; split_step; try exact H; apply Forall_set_nth; try exact H; try exact I; try apply rel_after.
  - (* CRmDir, the other cancels: a directory that is gone suits them all *) eapply rel_mono; [| |exact H]; auto.
  - (* CRmDir, this one, now at CDelIdx *) reflexivity.
  - (* CDelIdx, the other cancels *) eapply rel_mono; [| |exact H]; auto.
  - (* CDelIdx, this one, now at CEnd: the directory was gone before *) right. split; [exact Hci|reflexivity].
Qed.

(* when a release / force-release has run to its end, the directory and the index entry are gone
   - for every schedule, with or without daemon restarts, on the fixed and on the pinned tree *)
Theorem release_removes p sched i c :
  nth_error (w_cancels (run p sched world0)) i = Some c ->
  k_kind c <> 0 -> k_pc c = CEnd ->
  w_dir (run p sched world0) = false /\ w_indexed (run p sched world0) = false.
Proof.
  intros Hi Hk Hpc.
  assert (H : RInv (run p sched world0)).
  { apply run_preserves; [intros a w _; apply rel_step|constructor]. }
  apply nth_error_In, (proj1 (Forall_forall _ _) H) in Hi. unfold rel_ok in Hi. rewrite Hpc in Hi.
  destruct Hi as [E|Hi]; [contradiction|exact Hi].
Qed.

(* a unit without directory and index entry: no step brings them back or writes its record *)
Lemma released_step p a w f0 : w_dir w = false /\ w_indexed w = false /\ w_file w = f0 ->
  w_dir (step p a w) = false /\ w_indexed (step p a w) = false /\ w_file (step p a w) = f0.
Proof. destruct w. cbn. intros (-> & -> & E). destruct a; split_step; auto. Qed.

Definition submit5 : list action := [ASubmit false; ASubmit false; ASubmit false; ASubmit false; ASubmit false].

(* cancel arrives after the runner has seen its command exit and before it has written:
   the SIGINT is ignored, the runner writes Succeeded and exits, Cancel stops waiting and writes *)
Definition cancel_race_sched : list action :=
  submit5 ++ [ARunner 0; ARunner 0; AGrow 4; AExit true; ARunner 1; ACancelNew 0;
              ACancel 0%nat; ACancel 0%nat; ARunner 0; ARunner 0; ACancel 0%nat; ACancel 0%nat].

(* pinned tree (Cancel writes Canceled unconditionally): Succeeded is overwritten, no restart needed *)
Theorem succeeded_absorbing_pinned_refuted :
  no_restart cancel_race_sched = true /\
  let h := history h0 (w_log (run true cancel_race_sched world0)) in
  nth_error h 6 = Some (mkRec Succeeded 4) /\ nth_error h 7 = Some (mkRec Canceled 4) /\
  log_ok true (w_log (run true cancel_race_sched world0)) = false.
Proof. vm_compute. auto. Qed.

(* the repaired Cancel on the same schedule *)
Example cancel_race_fixed :
  let h := history h0 (w_log (run false cancel_race_sched world0)) in
  nth_error h 6 = Some (mkRec Succeeded 4) /\ nth_error h 7 = Some (mkRec Succeeded 4).
Proof. vm_compute. auto. Qed.

(* daemon restarted while the unit runs: Cancel does not wait for the runner (not its child),
   writes Canceled, and the runner's next tick writes Running *)
Definition restart_cancel_sched : list action :=
  submit5 ++ [ARunner 0; ARunner 0; AGrow 2; ARunner 0; ARestart; ARestartWrite; ACancelNew 0;
              ACancel 0%nat; ACancel 0%nat; ACancel 0%nat; ACancel 0%nat; ARunner 0; ARunner 2; ARunner 0].

(* daemon restarted before the runner's first tick: "Pending at restart", then the runner goes on *)
Definition restart_pending_sched : list action :=
  submit5 ++ [ARunner 0; ARestart; ARestartWrite; ARunner 0; AGrow 2; ARunner 0; AExit true; ARunner 1; ARunner 0].

Theorem stage_monotone_restart_refuted :
  (let h := history h0 (w_log (run false restart_cancel_sched world0)) in
   nth_error h 7 = Some (mkRec Canceled 2) /\ nth_error h 8 = Some (mkRec Running 2)) /\
  (let h := history h0 (w_log (run false restart_pending_sched world0)) in
   nth_error h 6 = Some (mkRec Failed 0) /\ nth_error h 7 = Some (mkRec Running 2)) /\
  stage Running < stage Canceled /\ stage Running < stage Failed.
Proof. vm_compute. auto. Qed.

Lemma mem_In x l : mem x l = true <-> In x l.
Proof.
  unfold mem. rewrite existsb_exists. split.
  - intros (y & Hy & E). apply N.eqb_eq in E. now subst.
  - intro H. exists x. now rewrite N.eqb_refl.
Qed.

Lemma nodup_ids_spec l : nodup_ids l = true <-> NoDup l.
Proof.
  induction l as [|x r IH]; simpl; [split; auto using NoDup_nil|].
  now rewrite NoDup_cons_iff, andb_true_iff, IH, negb_true_iff, <- not_true_iff_false, mem_In.
Qed.

Lemma gen_id_fresh fuel cands : forall pos index disk x pos',
  gen_id true fuel cands pos index disk = Some (x, pos') ->
  mem x index = false /\ mem x disk = false.
Proof.
  induction fuel as [|f IH]; intros pos index disk x pos' H; simpl in H; [discriminate|].
  destruct (mem (cands pos) index) eqn:E1; simpl in H; [now apply IH in H|].
  destruct (mem (cands pos) disk) eqn:E2; simpl in H; [now apply IH in H|].
  inversion H; subst. auto.
Qed.

(* an allocation adds to [i_given] only the ID that [gen_id] has found *)
Lemma alloc_given cd fuel cands fails s x :
  i_given (id_step cd fuel cands (IAlloc fails) s) = x :: i_given s ->
  exists pos', gen_id cd fuel cands (i_pos s) (i_index s) (i_disk s) = Some (x, pos').
Proof.
  simpl. intro H.
  (* when nothing is handed out [i_given] stays the same list, not one longer *)
  assert (Hlen : forall l : list id, l <> x :: l) by (intros l E; exact (n_Sn _ (f_equal (@length _) E))).
  destruct (gen_id cd fuel cands (i_pos s) (i_index s) (i_disk s)) as [[y pos']|]; [|now apply Hlen in H].
  destruct fails; [now apply Hlen in H|]. injection H as ->. now exists pos'.
Qed.

(* no two units in the index share an ID (hence a directory), for every candidate stream and
   every interleaving of allocations (successful or failing after mkdir) and releases *)
Theorem ids_unique fuel cands acts : forall s,
  nodup_ids (i_index s) = true -> nodup_ids (i_index (id_run true fuel cands acts s)) = true.
Proof.
  apply (fold_left_invariant (fun s a => id_step true fuel cands a s) (fun s => nodup_ids (i_index s) = true)).
  intros a s _ H. destruct a; simpl.
  - destruct (gen_id true fuel cands (i_pos s) (i_index s) (i_disk s)) as [[x pos']|] eqn:G; [|exact H].
    destruct fails; [exact H|]. apply gen_id_fresh in G as (G1 & _). simpl. now rewrite G1.
  - now destruct (mem x (i_index s)).
  - destruct (mem x (i_disk s)); [exact H|].
    apply nodup_ids_spec, NoDup_filter. now apply nodup_ids_spec.
Qed.

(* the mutation "generateUnitID does not look at the disk": the directory left by a failed
   allocation is handed out again *)
Theorem ids_without_disk_check_refuted :
  let cands := fun _ : nat => 7 in
  let s1 := id_step false 3 cands (IAlloc true) (mkIds [] [] 0 []) in
  let s2 := id_step false 3 cands (IAlloc false) s1 in
  mem 7 (i_disk s1) = true /\ i_given s2 = [7] /\
  i_given (id_step true 3 cands (IAlloc false) (id_step true 3 cands (IAlloc true) (mkIds [] [] 0 []))) = [].
Proof. vm_compute. auto. Qed.

Definition monitoring (r : rphase) : bool :=
  match r with RLoop | RKill | REscalate => true | _ => false end.

(* the command runs only while its runner is in the monitoring loop or terminating it; there is no
   runner before the launch *)
Definition child_ok (w : world) : Prop :=
  (w_child w = CRun -> monitoring (w_run w) = true) /\
  (pre_spawn (w_sub w) = true -> started (w_run w) = false).

Lemma child_step p a w : child_ok w -> child_ok (step p a w).
Proof.
  destruct w as [file pidset out sub run child sig wdone cancels restarted dload dir indexed log].
  unfold child_ok. cbn. intros (H1 & H2). destruct a; split_step.
  (* in nearly every branch each clause is the old one, or its premise is false *)
  all: split; [try exact H1; try (intro; discriminate)|try exact H2; try (intro; discriminate)].
  - (* ASubmit at SLaunch, the launch: no runner so far, hence no command *)
    intro E. specialize (H1 E). destruct run; [discriminate H1|discriminate (H2 eq_refl)..].
  - (* ARunner at RInit: the runner starts the command and monitors it *) reflexivity.
Qed.

Lemma child_run p sched : child_ok (run p sched world0).
Proof. apply run_preserves; [intros a w _; apply child_step|]. split; [discriminate|reflexivity]. Qed.

Lemma gone_not_alive r : gone r = true -> runner_alive r = false.
Proof. now destruct r. Qed.

Lemma gone_step p a w : child_ok w /\ gone (w_run w) = true ->
  child_ok (step p a w) /\ gone (w_run (step p a w)) = true.
Proof.
  intros (Hk & Hg). split; [now apply child_step|].
  destruct (step_run p a w (gone_not_alive _ Hg)) as [->|[(E & _)|(_ & ->)]]; [exact Hg| |reflexivity].
  (* no launch after the runner *)
  apply (f_equal pre_spawn), (proj2 Hk) in E. now destruct (w_run w).
Qed.

Lemma gone_run p sched w : child_ok w /\ gone (w_run w) = true ->
  child_ok (run p sched w) /\ gone (w_run (run p sched w)) = true.
Proof.
  exact (run_preserves p (fun s => child_ok s /\ gone (w_run s) = true) sched (fun a s _ => gone_step p a s) w).
Qed.

Lemma no_child w : child_ok w -> runner_alive (w_run w) = false -> w_child w <> CRun.
Proof. intros (H & _) Ha E. apply H in E. destruct (w_run w); discriminate. Qed.

(* the command that ignores SIGINT: the runner escalates, and only then exits *)
Example ignoring_command_is_killed :
  let w := run false (submit5 ++ [ARunner 0; ARunner 0; ACancelNew 0; ACancel 0%nat; ACancel 0%nat;
                                  ARunner 2; ARunner 1; ACancel 0%nat]) world0 in
  w_run w = REscalate /\ w_child w = CRun /\
  nth_error (w_cancels w) 0 = Some (mkCanc 0 CWait) /\
  let w2 := run false [ARunner 0; ACancel 0%nat; ACancel 0%nat] w in
  w_run w2 = RGone false /\ w_child w2 = CDone false /\ st (w_file w2) = Canceled.
Proof. vm_compute. repeat split; reflexivity. Qed.

(* once cancelled, a unit without a live runner never gets one (no restart): the launch is refused *)
Lemma dead_step p a w : is_restart a = false ->
  runner_alive (w_run w) = false /\ w_cancels w <> [] ->
  runner_alive (w_run (step p a w)) = false /\ w_cancels (step p a w) <> [].
Proof.
  intros Ha (Hr & Hc). split.
  - destruct (step_run p a w Hr) as [->|[(_ & E & _)|(_ & ->)]]; [exact Hr|contradiction|reflexivity].
  - destruct (is_cancel_step a) eqn:Ea.
    + (* the i-th cancel is replaced, or nothing happens *)
      destruct a; try discriminate Ea.
      destruct w as [file pidset out sub run child sig wdone cancels restarted dload dir indexed log].
      cbn in Hc. split_step; assumption || now apply set_nth_nonempty.
    + destruct (step_keeps p a w Ea) as (_ & _ & [->|[(k & ->)|(-> & _)]]); [exact Hc| |discriminate Ha].
      now destruct (w_cancels w).
Qed.

(* see C13_cancel_always_stops_process; both schedules are restart-free *)
Theorem cancel_always_stops_process sched i c : no_restart sched = true ->
  nth_error (w_cancels (run false sched world0)) i = Some c ->
  (k_pc c = CRmDir \/ k_pc c = CDelIdx \/ k_pc c = CEnd) ->
  forall sched', no_restart sched' = true ->
  let w' := run false sched' (run false sched world0) in
  (w_run w' = RNone \/ gone (w_run w') = true) /\ w_child w' <> CRun.
Proof.
  intros Hn Hi Hpc sched' Hn' w'. set (w := run false sched world0) in *.
  assert (Hc : runner_alive (w_run w) = false).
  { pose proof (run_canc_ok sched i c Hn Hi) as Hc. unfold canc_ok in Hc.
    now destruct Hpc as [E|[E|E]]; rewrite E in Hc. }
  assert (Hne : w_cancels w <> []) by (intro E; rewrite E in Hi; now destruct i).
  destruct (run_preserves false _ sched' (fun a s Ha => dead_step false a s (no_restart_In _ _ Hn' Ha)) w (conj Hc Hne))
    as (Hd & _).
  split; [|apply no_child; [apply run_preserves; [intros a s _; apply child_step|apply child_run]|exact Hd]].
  change (runner_alive (w_run w') = false) in Hd. destruct (w_run w'); try discriminate Hd; auto.
Qed.

Lemma rem_cancelled_step a r :
  r_cancelled r = true /\ r_started r = false /\ r_job r = false ->
  r_cancelled (rem_step true a r) = true /\ r_started (rem_step true a r) = false /\ r_job (rem_step true a r) = false.
Proof. destruct r; cbn. intros (-> & -> & ->). now destruct a. Qed.

Lemma rem_cancelled_run acts r :
  r_cancelled r = true /\ r_started r = false /\ r_job r = false ->
  r_cancelled (rem_run true acts r) = true /\ r_started (rem_run true acts r) = false /\ r_job (rem_run true acts r) = false.
Proof.
  exact (fold_left_invariant (fun r a => rem_step true a r) _ acts (fun a r _ => rem_cancelled_step a r) r).
Qed.

(* Cancel and Release of a unit not yet started stop the submitting job *)
Lemma rem_cancel_step a r : a = RmCancel \/ a = RmRelease -> r_started r = false ->
  let r' := rem_step true a r in r_cancelled r' = true /\ r_started r' = false /\ r_job r' = false.
Proof. intros [-> | ->] Hs; cbn; now rewrite Hs. Qed.

(* a Cancel that leaves the job alone (seeded mutation): the node comes back and the cancelled unit
   is submitted, while its record says Failed *)
Theorem remote_cancel_without_stopping_refuted :
  let r := rem_run false [RmCancel; RmReach true; RmTry] rem0 in
  r_cancelled r = true /\ r_state r = Failed /\ r_started r = true.
Proof. vm_compute. auto. Qed.

(* Proofs/Writer.v — the in-process producer (STDoutWriter + finishing UpdateBasicStatus) keeps the
   producer's contract of Model/Results.v, for every sequence of writes, every number of bytes the
   file accepts, every error and every failing status save; and so does the command runner, for
   every history of child writes and ticks (second half of the file). *)
From Coq Require Import Lia.
From Receptor Require Import Base.ListFacts Model.Writer Proofs.Results.
Open Scope N_scope.

Lemma rlen_firstn (p : bytes) (n : N) : n <= rlen p -> rlen (firstn (N.to_nat n) p) = n.
Proof.
  unfold rlen. intro H. rewrite firstn_length. lia.
Qed.

Lemma accepted_le p a : accepted p a <= rlen p.
Proof. unfold accepted. lia. Qed.

Lemma w_write_false s p a e sv :
  w_write false s p a e sv =
  let n := accepted p a in
  (mkW (ws_file s ++ firstn (N.to_nat n) p) (ws_written s + n)
       (if (0 <? n) && sv then ws_written s + n else ws_recorded s) (ws_state s),
   (n, if 0 <? n then e || negb sv else e)).
Proof.
  unfold w_write. destruct (N.ltb_spec 0 (accepted p a)); cbn [andb]; [reflexivity|].
  replace (accepted p a) with 0 by lia. now rewrite N.add_0_r.
Qed.

(* Size() is the length of the file; the record is never ahead *)
Definition winv_w (s : wstate) : Prop :=
  ws_written s = rlen (ws_file s) /\ ws_recorded s <= rlen (ws_file s).

Lemma w_step_inv s o : winv_w s -> winv_w (w_step s o).
Proof.
  intros [Hw Hr]. destruct o as [p a e sv|st]; unfold winv_w, w_step, w_step_with.
  - rewrite w_write_false. cbn. rewrite rlen_app, (rlen_firstn p _ (accepted_le p a)).
    destruct ((0 <? accepted p a) && sv); lia.
  - cbn. lia.
Qed.

Lemma w_steps_inv ops s : winv_w s -> winv_w (fold_left w_step ops s).
Proof. apply fold_left_invariant. intros o s' _. apply w_step_inv. Qed.

Lemma winv_w0 : winv_w wstate0.
Proof. split; [reflexivity|apply N.le_refl]. Qed.

(* the world of Model/Results.v after the trace the writer has generated *)
Definition wrel (s : wstate) (w : world) : Prop :=
  w_file w = Some (ws_file s) /\ w_state w = ws_state s /\ w_size w = ws_recorded s.

Lemma wrel_step s w o : wrel s w ->
  wrel (w_step s o) (fold_left env_step (w_events_with false s o) w).
Proof.
  intros [Hf [Hs Hz]]. destruct o as [p a e sv|st]; unfold wrel, w_step, w_events_with, w_step_with.
  - rewrite w_write_false. cbn [fst ws_file ws_state ws_recorded].
    destruct (N.ltb_spec 0 (accepted p a)) as [E|E].
    + destruct sv; cbn; unfold w_output; rewrite Hf; auto.
    + (* nothing accepted: no event, and nothing appended *)
      replace (accepted p a) with 0 by lia. cbn. rewrite app_nil_r. auto.
  - cbn. auto.
Qed.

Lemma wrel_trace ops : forall s w, wrel s w ->
  wrel (fold_left w_step ops s) (fold_left env_step (wtrace_from false s ops) w).
Proof.
  induction ops as [|o r IH]; intros s w H; [exact H|].
  simpl. rewrite fold_left_app. apply IH. now apply wrel_step.
Qed.

Lemma wrel0 : wrel wstate0 (env_step world0 ECreate).
Proof. unfold wrel. simpl. auto. Qed.

Theorem writer_world_thm : forall ops,
  output_of (wtrace ops) = ws_file (wrun ops) /\
  w_state (world_after (wtrace ops)) = ws_state (wrun ops) /\
  w_size (world_after (wtrace ops)) = ws_recorded (wrun ops).
Proof.
  intro ops. destruct (wrel_trace ops wstate0 _ wrel0) as [Hf Hsz].
  split; [|exact Hsz]. unfold output_of, w_output, world_after, wtrace. cbn [fold_left]. now rewrite Hf.
Qed.

(* whatever an unfinished unit's writer does is permitted: a write records the state that was,
   a status the size that is *)
Lemma w_events_contract s w o :
  wrel s w -> winv_w s -> results_done (ws_state s) = false ->
  along (cstep results_done) w (w_events_with false s o) = true.
Proof.
  intros [Hf [Hs _]] [Hw _] Hnf. destruct o as [p a e sv|st]; unfold w_events_with.
  - destruct (0 <? accepted p a); [|reflexivity]. destruct sv; simpl; now rewrite ?Hs, Hnf.
  - simpl. rewrite Hs, Hnf, andb_true_r. destruct (results_done st); [|reflexivity].
    apply N.eqb_eq. unfold w_output. now rewrite Hf.
Qed.

Lemma disciplined_cons s o r :
  disciplined_from (results_done (ws_state s)) (o :: r) = true ->
  results_done (ws_state s) = false /\
  disciplined_from (results_done (ws_state (w_step s o))) r = true.
Proof.
  destruct o as [p a e sv|st]; simpl; intro H; apply andb_true_iff in H as [Hnf Hd];
    apply negb_true_iff in Hnf; (split; [exact Hnf|]); [|exact Hd].
  now rewrite w_write_false.
Qed.

Lemma writer_contract_from ops : forall s w,
  wrel s w -> winv_w s -> disciplined_from (results_done (ws_state s)) ops = true ->
  along (cstep results_done) w (wtrace_from false s ops) = true.
Proof.
  induction ops as [|o r IH]; intros s w Hrel Hinv Hd; [reflexivity|].
  apply disciplined_cons in Hd as [Hnf Hd].
  cbn [wtrace_from]. rewrite along_app, (w_events_contract s w o Hrel Hinv Hnf).
  exact (IH _ _ (wrel_step s w o Hrel) (w_step_inv s o Hinv) Hd).
Qed.

Theorem writer_contract_thm : forall ops,
  disciplined ops = true -> contract (wtrace ops) = true.
Proof.
  intros ops Hd. unfold contract. rewrite contract_along.
  exact (writer_contract_from ops wstate0 _ wrel0 winv_w0 Hd).
Qed.

(* non-vacuity: a history with short writes, errors and a failing save *)
Definition writer_example : list wop :=
  [WWrite [1; 2; 3] 3 false true; WWrite [4; 5; 6; 7] 2 true true; WWrite [6; 7] 0 true true;
   WWrite [6; 7] 9 false false; WStatus ST_RUNNING; WWrite [8] 1 false true; WStatus ST_SUCCEEDED].

Example writer_example_ok :
  disciplined writer_example = true /\
  ws_file (wrun writer_example) = [1; 2; 3; 4; 5; 6; 7; 8] /\
  ws_recorded (wrun writer_example) = 8 /\
  fst (wobs_run wstate0 writer_example) =
    [mkObs 3 false 3 3 0; mkObs 2 true 5 5 0; mkObs 0 true 5 5 0; mkObs 2 true 7 5 0;
     mkObs 0 false 7 7 1; mkObs 1 false 8 8 1; mkObs 0 false 8 8 2] /\
  results_run 2 (wtrace writer_example ++ repeat (EPoll 3) 8) = ([[3; 4; 5]; [6; 7; 8]], true).
Proof. repeat split; reflexivity. Qed.

(* an open reader inside the file *)
Definition reader_within (s : N) (w : world) (ph : rphase) : Prop :=
  exists p, rpos s ph = Some p /\ p <= rlen (w_output w).

(* while the record is ahead of the file the reader stays there: the end of the file is the
   furthest it gets, and the recorded size is beyond *)
Lemma ahead_step d s w ph n :
  rlen (w_output w) < w_size w -> w_file w <> None ->
  reader_within s w ph -> reader_within s w (fst (reader_step d s w ph n)).
Proof.
  intros Hsz Hfile (p & Hp & Hle).
  pose proof (reader_step_sends d s w ph n p Hp) as Hs.
  assert (Hne : ph <> RDone) by (intros ->; discriminate).
  pose proof (reader_finish_covers_thm d s w ph n Hne) as Hd.
  destruct (reader_step d s w ph n) as [ph' c]. destruct Hs as [[rest Hr] Hp']. simpl in *.
  exists (p + rlen c). split.
  - apply Hp'. intros ->. destruct (Hd eq_refl) as [_ [Hn|(pos & -> & Hpos)]]; [contradiction|].
    inversion Hp. lia.
  - apply (f_equal (@length N)) in Hr. rewrite skipn_length, app_length in Hr. unfold rlen in *. lia.
Qed.

Definition asked_witness : list wop := [WWrite [1; 2; 3] 1 true true; WStatus ST_SUCCEEDED].

Theorem writer_count_asked_refuted_thm :
  disciplined asked_witness = true /\
  ws_recorded (wrun asked_witness) = 1 /\ ws_file (wrun asked_witness) = [1] /\
  results_run 0 (wtrace asked_witness ++ repeat (EPoll 65536) 5) = ([[1]], true) /\
  world_after (wtrace_asked asked_witness) = mkWorld (Some [1]) ST_SUCCEEDED 3 /\
  contract (wtrace_asked asked_witness) = false /\
  (forall polls, snd (results_run 0 (wtrace_asked asked_witness ++ map EPoll polls)) = false).
Proof.
  repeat split; try reflexivity.
  apply (results_never_end results_done 0 (wtrace_asked asked_witness) [] RWait
           (mkWorld (Some [1]) ST_SUCCEEDED 3) (reader_within 0 (mkWorld (Some [1]) ST_SUCCEEDED 3))).
  - reflexivity.
  - exists 0. now split.
  - intros (p & Hp & _). discriminate.
  - intros ph n. now apply ahead_step.
Qed.

(* the command runner: the world after the trace it has generated *)
Definition rrel (s : rstate) (w : world) : Prop :=
  w_file w = Some (rs_file s) /\ w_state w = rs_state s.

Lemma rrel_step s w o : rrel s w -> rrel (r_step s o) (fold_left env_step (r_events s o) w).
Proof.
  intros [Hf Hs]. destruct o as [b|ok|st]; unfold rrel; simpl.
  - unfold w_output. rewrite Hf. auto.
  - destruct ok; simpl; auto.
  - auto.
Qed.

Lemma rrel_trace ops : forall s w, rrel s w ->
  rrel (fold_left r_step ops s) (fold_left env_step (rtrace_from s ops) w).
Proof.
  induction ops as [|o r IH]; intros s w H; [exact H|].
  simpl. rewrite fold_left_app. apply IH. now apply rrel_step.
Qed.

Lemma rrel0 : rrel rstate0 (env_step world0 ECreate).
Proof. now split. Qed.

(* whatever happens before the exit is recorded is permitted, and so is recording the exit *)
Lemma r_events_contract s w o :
  rrel s w -> results_done (rs_state s) = false ->
  along (cstep results_done) w (r_events s o) = true.
Proof.
  intros [Hf Hs] Hnf. destruct o as [b|[|]|st]; simpl; rewrite ?Hs, ?Hnf; try reflexivity.
  rewrite andb_true_r. destruct (results_done st); [|reflexivity].
  apply N.eqb_eq. unfold w_output. now rewrite Hf.
Qed.

Lemma runner_contract_from ops : forall s w,
  rrel s w -> results_done (rs_state s) = false -> exits_last ops = true ->
  along (cstep results_done) w (rtrace_from s ops) = true.
Proof.
  induction ops as [|o r IH]; intros s w Hrel Hnf Hx; [reflexivity|].
  cbn [rtrace_from]. rewrite along_app, (r_events_contract s w o Hrel Hnf).
  destruct o as [b|ok|st]; cbn [exits_last] in Hx.
  - exact (IH _ _ (rrel_step s w (RAppend b) Hrel) Hnf Hx).
  - apply (IH _ _ (rrel_step s w (RTick ok) Hrel)); [|exact Hx]. now destruct ok.
  - apply andb_true_iff in Hx as [_ Hr]. now destruct r.
Qed.

Theorem runner_contract_thm : forall ops, exits_last ops = true -> contract (rtrace ops) = true.
Proof.
  intros ops Hx. unfold contract. rewrite contract_along.
  exact (runner_contract_from ops rstate0 _ rrel0 eq_refl Hx).
Qed.

Theorem runner_world_thm : forall ops,
  output_of (rtrace ops) = rs_file (rrun ops) /\
  w_state (world_after (rtrace ops)) = rs_state (rrun ops).
Proof.
  intro ops. destruct (rrel_trace ops rstate0 _ rrel0) as [Hf Hs].
  split; [|exact Hs]. unfold output_of, w_output, world_after, rtrace. cbn [fold_left]. now rewrite Hf.
Qed.

Definition runner_example : list rop :=
  [RTick true; RAppend [1; 2]; RTick false; RAppend [3]; RTick true; RAppend [4; 5]; RExit ST_FAILED].

Example runner_example_ok :
  exits_last runner_example = true /\
  rtrace runner_example =
    [ECreate; ESetStatus ST_RUNNING 0; EAppend [1; 2]; EAppend [3]; ESetStatus ST_RUNNING 3;
     EAppend [4; 5]; ESetStatus ST_FAILED 5] /\
  results_run 1 (rtrace runner_example ++ repeat (EPoll 2) 7) = ([[2; 3]; [4; 5]], true).
Proof. repeat split; reflexivity. Qed.

(* Props/C01.v — property C01: routing converges to least-cost, loop-free next hops.
   Layer 1 (this file, part A): the routing-table computation.  Model/Route.v gives
     - the specification (weights of walks in the known graph),
     - the verified certificate checker [route_check], which `./check C01` runs on the REAL node's
       cost map and routing table for every generated known graph,
     - the algorithm of updateRoutingTable as a transition relation with ARBITRARY pop order.
   Layer 2/3 (part B): the known graph converges to the real topology (Model/RouteWorld.v).
   Link bookkeeping (last part): a node's own row of the known graph is its connections
   (Model/RouteLink.v). *)
From Receptor Require Import Model.Route Proofs.Route Proofs.RouteAlg.
Open Scope N_scope.

(* A1. The checker is sound: a cost map and table it accepts contain exactly the reachable nodes,
       each with its least cost and with a directly connected next hop on a least-cost path;
       unreachable nodes have no entry. *)
Theorem C01_checker_sound : forall g self cs t,
  graph_wf g = true -> all_pos g = true -> route_check g self cs t = true ->
  forall d, is_key g d = true ->
    (forall c, cost_of cs d = Some c -> is_dist g self d c) /\
    (cost_of cs d = None -> unreachable g self d /\ aget d t = None) /\
    (forall h, aget d t = Some h ->
       d <> self /\
       exists w c2, edge g self h = Some w /\ walk g h d c2 /\ is_dist g self d (w + c2)) /\
    (aget d t = None -> d = self \/ unreachable g self d).
Proof. exact route_check_sound. Qed.
Print Assumptions C01_checker_sound.

(* A2. The algorithm, for EVERY pop order: whenever its queue is empty the cost map holds exactly
       the least costs (and no cost for unreachable nodes) ... *)
Theorem C01_rebuild_costs_correct : forall g self, graph_wf g = true -> positive g ->
  forall st v, relax_star g (r_init g self) st -> r_queue st = [] -> is_key g v = true ->
  (forall c, cost_of (r_cost st) v = Some c -> is_dist g self v c) /\
  (cost_of (r_cost st) v = None -> unreachable g self v).
Proof.
  intros g self Hwf Hpos st v Hs Hq.
  apply costs_sound; [exact Hpos|exact (relax_terminal_cert g self Hwf st Hs Hq)].
Qed.
Print Assumptions C01_rebuild_costs_correct.

(* ... every table entry names a direct neighbour on a least-cost path ... *)
Theorem C01_rebuild_next_hops_correct : forall g self, graph_wf g = true -> positive g ->
  forall st, relax_star g (r_init g self) st -> r_queue st = [] ->
  forall d h, In (d, h) (table_of g self st) ->
  is_key g d = true /\
  exists w c2, edge g self h = Some w /\ walk g h d c2 /\ is_dist g self d (w + c2).
Proof. exact relax_terminal_table. Qed.
Print Assumptions C01_rebuild_next_hops_correct.

(* ... and every execution is finite.  Costs are natural numbers here, so the theorem needs no
   positivity; in the code costs are floats, and a negative cycle made the loop run for ever until
   fix 06678b3 made nodes ignore non-positive costs reported by peers. *)
Theorem C01_rebuild_terminates : forall g, graph_wf g = true ->
  well_founded (fun b a => relax g a b).
Proof. exact rebuild_terminates. Qed.
Print Assumptions C01_rebuild_terminates.

(* A3. Loop freedom across the mesh: if every node's table is accepted by the checker for the
       same topology, following next hops from any u reaches d, every node visited on the way is
       strictly closer to d than u, and (second theorem) no node is visited twice — although
       different nodes may break ties differently. *)
Theorem C01_next_hops_reach : forall g cs_of t_of,
  graph_wf g = true -> all_pos g = true ->
  (forall u, is_key g u = true -> route_check g u (cs_of u) (t_of u) = true) ->
  forall c u d, is_key g u = true -> is_key g d = true -> is_dist g u d c ->
  exists l, follows t_of d u l /\
            (forall x, In x l -> exists cx, is_dist g x d cx /\ cx < c \/ (x = d /\ c = c)) /\
            (forall x, In x l -> exists cx, is_dist g x d cx /\ (u <> d -> cx < c)).
Proof.
  intros g cs_of t_of Hwf Hp Hall c u d Hku Hkd Hd.
  destruct (next_hops_loop_free g cs_of t_of Hwf Hp Hall c u d Hku Hkd Hd) as [l [Hf [_ Hl]]].
  exists l. split; [exact Hf|].
  split; intros x Hx; destruct (Hl x Hx) as [cx [Hcx Hlt]]; exists cx; auto.
Qed.
Print Assumptions C01_next_hops_reach.

Theorem C01_next_hops_loop_free : forall g cs_of t_of,
  graph_wf g = true -> all_pos g = true ->
  (forall u, is_key g u = true -> route_check g u (cs_of u) (t_of u) = true) ->
  forall c u d l, is_key g u = true -> is_key g d = true -> is_dist g u d c ->
  follows t_of d u l -> NoDup (u :: l).
Proof.
  intros g cs_of t_of Hwf Hp Hall c u d l Hku Hkd Hd Hf.
  destruct (next_hops_loop_free g cs_of t_of Hwf Hp Hall c u d Hku Hkd Hd) as [l' [Hf' [Hnd _]]].
  now rewrite (follows_functional t_of d u l Hf l' Hf').
Qed.
Print Assumptions C01_next_hops_loop_free.

(* non-vacuity: a concrete graph with a tie-free shortest path, an unreachable key, a run of the
   algorithm to an empty queue, and the checker accepting its output *)
Example C01_nonvacuous :
  exists st, run_head 20 ex_g (r_init ex_g 1) = Some st /\
             r_cost st = [(1, Some 0); (2, Some 1); (3, Some 2); (4, Some 3); (9, None)] /\
             table_of ex_g 1 st = [(2, 2); (3, 2); (4, 2)] /\
             route_check ex_g 1 (r_cost st) (table_of ex_g 1 st) = true.
Proof. exact ex_route. Qed.

(* Part B: the known graph converges to the real topology *)
From Receptor Require Import Model.Flood Model.FloodWorld Model.RouteWorld Proofs.RouteWorld Proofs.RouteCompose.

(* B1. CLEAN-ROUND CONVERGENCE.  In a clean world (frozen symmetric topology, every routing update
       in flight is an ordinary one, no duplicate-node notice, and tells the truth about its
       origin), for EVERY interleaving of ticks (a node floods its true adjacency with a fresh ID
       and a newer (epoch, sequence)) and deliveries in ANY order: once node o has ticked and
       nothing is in flight any more, every other node connected to o holds exactly o's true
       adjacency.  (Nodes run Model/Flood.v's handle_update, the model
       that `./check C06` ties step-exactly to handleRoutingUpdate.) *)
Theorem C01_known_graph_converges : forall tp ls w w' o v,
  CI tp w -> rrun tp w ls w' -> ticked o ls -> w_flight w' = [] ->
  treach tp o v -> v <> o ->
  exists st, rnode_at w' v = Some st /\ aget o (ns_known st) = Some (tp o).
Proof. exact known_graph_converges. Qed.
Print Assumptions C01_known_graph_converges.

(* the clean-world invariant is preserved by every step *)
Theorem C01_clean_preserved : forall tp ls w w', rrun tp w ls w' -> CI tp w -> CI tp w'.
Proof. intros tp ls w w' Hr C. exact (proj1 (rrun_preserves tp ls w w' Hr C)). Qed.
Print Assumptions C01_clean_preserved.

(* B2. COMPOSITION.  If every node's known graph tells the truth about everything it can reach
       (B1; stale entries about unreachable nodes are harmless) and every node's table passes the
       certificate check for its own known graph (which `./check C01` finds of the real node's
       tables; A2 proves the algorithm's costs and entries right, not that the checker accepts
       them), then IN THE REAL TOPOLOGY G: each table
       has an entry exactly for the reachable nodes, reports their least cost, routes via a direct
       neighbour strictly closer to the destination, and following next hops never loops. *)
Theorem C01_converged_next_hop : forall tp G kg_of cs_of t_of,
  (forall a, is_key G a = true -> agrees tp a G) ->
  (forall u, is_key G u = true ->
     agrees tp u (kg_of u) /\ graph_wf (kg_of u) = true /\ all_pos (kg_of u) = true /\
     route_check (kg_of u) u (cs_of u) (t_of u) = true) ->
  forall u d c, is_key G u = true -> u <> d -> is_dist G u d c ->
  exists h w c2, aget d (t_of u) = Some h /\ edge G u h = Some w /\ 0 < w /\
                 is_dist G h d c2 /\ c = w + c2 /\ is_key G h = true.
Proof. exact real_next_hop_closer. Qed.
Print Assumptions C01_converged_next_hop.

Theorem C01_converged_table_exact : forall tp G kg_of cs_of t_of,
  (forall a, is_key G a = true -> agrees tp a G) ->
  (forall u, is_key G u = true ->
     agrees tp u (kg_of u) /\ graph_wf (kg_of u) = true /\ all_pos (kg_of u) = true /\
     route_check (kg_of u) u (cs_of u) (t_of u) = true) ->
  forall u d, is_key G u = true -> is_key G d = true -> d <> u ->
  (aget d (t_of u) <> None <-> exists c, is_dist G u d c) /\
  (forall c, is_dist G u d c -> cost_of (cs_of u) d = Some c).
Proof. exact real_table_exact. Qed.
Print Assumptions C01_converged_table_exact.

Theorem C01_converged_loop_free : forall tp G kg_of cs_of t_of,
  (forall a, is_key G a = true -> agrees tp a G) ->
  (forall u, is_key G u = true ->
     agrees tp u (kg_of u) /\ graph_wf (kg_of u) = true /\ all_pos (kg_of u) = true /\
     route_check (kg_of u) u (cs_of u) (t_of u) = true) ->
  forall c u d, is_key G u = true -> is_dist G u d c ->
  exists l, follows t_of d u l /\ NoDup (u :: l) /\
            forall x, In x l -> exists cx, is_dist G x d cx /\ cx < c.
Proof.
  intros tp G kg_of cs_of t_of HG Hkg c u d. apply (follows_descends t_of G d). intros v cv Hv Hne Hd.
  destruct (real_next_hop_closer tp G kg_of cs_of t_of HG Hkg v d cv Hv Hne Hd)
    as [h [w [c2 [Hh [_ [Hw [Hd2 [-> Hkh]]]]]]]].
  exists h, c2. split; [exact Hh|]. split; [exact Hkh|].
  split; [exact Hd2|now apply N.lt_add_pos_l].
Qed.
Print Assumptions C01_converged_loop_free.

(* non-vacuity of B1: a concrete clean world 1 - 2 - 3, node 1 ticks, two deliveries, quiet, and
   node 3 holds node 1's true adjacency *)
Example C01_clean_nonvacuous :
  exists ls w', rrun ex_tp ex_w0 ls w' /\ ticked 1 ls /\ w_flight w' = [] /\
  exists st, rnode_at w' 3 = Some st /\ aget 1 (ns_known st) = Some (ex_tp 1).
Proof. exact ex_route_converged. Qed.

(* Link bookkeeping (Model/RouteLink.v): the hypothesis "a node's own row is its true adjacency" of part
   B, over every history of establish / removeConnection / end-of-Close events - a session's teardown
   may end long after its removeConnection, with a new session of the same peer established in between. *)
From Receptor Require Import Model.RouteLink Proofs.RouteLink.

Theorem C01_own_row_is_connections : forall h, l_own (lrun false l0 h) = l_conns (lrun false l0 h).
Proof. intro h. now apply own_row_is_connections. Qed.
Print Assumptions C01_own_row_is_connections.

(* a deferred clean-up that forgets the peer's costs once more after Close loses the NEW session's row *)
Theorem C01_late_forget_refuted :
  let s := lrun true l0 slow_close_history in l_conns s = [(1, 2)] /\ l_own s = [].
Proof. exact late_forget_refuted. Qed.
Print Assumptions C01_late_forget_refuted.

Example C01_slow_close_nonvacuous :
  let s := lrun false l0 slow_close_history in l_conns s = [(1, 2)] /\ l_own s = [(1, 2)].
Proof. vm_compute. split; reflexivity. Qed.

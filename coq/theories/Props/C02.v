(* Props/C02.v — property C02: datagrams arrive intact, only at the addressed service, with the
   true source.  Statements and their assumptions; a proof of a few lines over the lemmas of Proofs/ stands
   here, the others are behind [exact].
   Models: Model/Wire.v (translateDataFromMessage / translateDataToMessage / AddNameHash),
   Model/Framer.v (pkg/framer + the Recv loop of the stream backends), Model/Forward.v
   (handleMessageData / forwardMessage); tied to the code by `./check C02`.
   highwayhash is the Section variable [hash]; its collision freedom on the names in use is the
   explicit hypothesis [hash_inj_on]. *)
From Coq Require Import String.
From Receptor Require Import Model.Wire Model.Framer Model.Forward.
From Receptor Require Import Proofs.Wire Proofs.Framer Proofs.Forward.
Open Scope N_scope.

(* --- intact across the codec: EVERY payload (any length, any bytes), every hop value --- *)

(* a receiver whose table resolves the two name hashes reads back what the sender wrote *)
Theorem C02_decode_encode : forall hash self t m,
  lookup (hash64 hash (canon self (m_from m))) t = Some (canon self (m_from m)) ->
  lookup (hash64 hash (canon self (m_to m))) t = Some (canon self (m_to m)) ->
  svc_ok (m_fsvc m) = true -> svc_ok (m_tsvc m) = true ->
  decode_msg t (encode_msg hash self m) = DOk (canon_msg self m).
Proof. exact decode_encode. Qed.
Print Assumptions C02_decode_encode.

(* the same for a receiver that learned the mesh's names through AddNameHash (in any order,
   with repetitions), node IDs other than the localhost alias, hash injective on those names *)
Theorem C02_decode_encode_mesh : forall hash sself rself ns m,
  hash_inj_on hash (map (canon rself) (rself :: ns)) ->
  In (m_from m) (rself :: ns) -> In (m_to m) (rself :: ns) ->
  is_localhost (m_from m) = false -> is_localhost (m_to m) = false ->
  svc_ok (m_fsvc m) = true -> svc_ok (m_tsvc m) = true ->
  decode_msg (add_names hash rself (init_tbl hash rself) ns) (encode_msg hash sself m) = DOk m.
Proof.
  intros hash sself rself ns m I Hf Ht Lf Lt Sf St. rewrite decode_encode; try assumption.
  - unfold canon_msg. rewrite !canon_plain by assumption. destruct m; reflexivity.
  - rewrite (canon_plain sself _ Lf), <- (canon_plain rself _ Lf).
    apply add_names_known; assumption.
  - rewrite (canon_plain sself _ Lt), <- (canon_plain rself _ Lt).
    apply add_names_known; assumption.
Qed.
Print Assumptions C02_decode_encode_mesh.

Theorem C02_encode_len : forall hash self m,
  length (encode_msg hash self m) = (36 + length (m_data m))%nat.
Proof. exact encode_len. Qed.
Print Assumptions C02_encode_len.

(* service names of 1-8 non-zero bytes survive the fixed 8-byte field; any 8-byte field is
   reproduced when a forwarder writes the name again *)
Theorem C02_strip_pad_id : forall s, svc_ok s = true -> strip_nul (pad8 s) = s.
Proof. exact strip_pad_id. Qed.
Print Assumptions C02_strip_pad_id.

Theorem C02_pad_strip_id : forall x, length x = 8%nat -> pad8 (strip_nul x) = x.
Proof. exact pad_strip_id. Qed.
Print Assumptions C02_pad_strip_id.

(* --- never handed to any other listener: names that do not fit the 8-byte field --- *)

(* SendMessageWithHopsToLive refuses a source or destination service name longer than 8 bytes:
   no packet is made ... *)
Theorem C02_overlong_service_refused : forall hash self m,
  (8 < blen (m_fsvc m) \/ 8 < blen (m_tsvc m)) -> first_hop_packet hash self m = None.
Proof.
  intros hash self m H. unfold first_hop_packet, send_refused.
  destruct H as [H|H]; apply N.ltb_lt in H; rewrite H, ?orb_true_r; reflexivity.
Qed.
Print Assumptions C02_overlong_service_refused.

(* ... hence, in every world, nothing is forwarded and nothing is handed to any listener *)
Theorem C02_refused_send_causes_nothing : forall w src fsvc to tsvc data h,
  send_refused fsvc tsvc = true ->
  send_api w src fsvc to tsvc data h = ([], SE_TOOLONG)
  /\ count_deliver (fst (send_api w src fsvc to tsvc data h)) = 0%nat
  /\ count_forward (fst (send_api w src fsvc to tsvc data h)) = 0%nat.
Proof. intros w src fsvc to tsvc data h R. unfold send_api. rewrite R. repeat split. Qed.
Print Assumptions C02_refused_send_causes_nothing.

(* a packet that IS sent carries both service names whole (name, then NULs only): no name
   travels as a prefix of itself *)
Theorem C02_sent_names_whole : forall hash self m p,
  first_hop_packet hash self m = Some p ->
  firstn 8 (skipn 20 p) = m_fsvc m ++ repeat 0 (8 - length (m_fsvc m)) /\
  firstn 8 (skipn 28 p) = m_tsvc m ++ repeat 0 (8 - length (m_tsvc m)) /\
  skipn 36 p = m_data m.
Proof. exact first_hop_names_whole. Qed.
Print Assumptions C02_sent_names_whole.

(* --- however a stream backend fragments or coalesces the framed bytes --- *)

(* frame lengths are below 2^16: on that whole range the two header bytes spell the exact length
   and the receiver's "length + 2" stays below 2^16 + 2, so the model's unbounded arithmetic and
   the 16-bit header agree *)
Theorem C02_frame_header_exact : forall m, flen m < 65536 ->
  exists b0 b1, frame m = b0 :: b1 :: m /\ b0 < 256 /\ b1 < 256 /\ b0 + 256 * b1 = flen m
                /\ b0 + 256 * b1 + 2 <= 65537.
Proof. exact frame_header_exact. Qed.
Print Assumptions C02_frame_header_exact.

(* GetMessage returns a message only from inside the buffer, of exactly the announced length,
   for every header 0 .. 65535 *)
Theorem C02_pop_in_bounds : forall buf m rest, pop buf = Some (m, rest) ->
  exists b0 b1, buf = b0 :: b1 :: m ++ rest /\ flen m = b0 + 256 * b1.
Proof. exact pop_in_bounds. Qed.
Print Assumptions C02_pop_in_bounds.

(* outside the range (>= 65536 bytes) SendData does not refuse, it writes the length modulo
   2^16, and the framing of the link is lost: refuted there, which is why the theorems below
   carry the hypothesis flen m < 65536, which nothing in the code enforces *)
Theorem C02_oversize_frame_refuted : forall m, flen m = 65536 -> pop (frame m) = Some ([], m).
Proof. exact oversize_frame_garbled. Qed.
Print Assumptions C02_oversize_frame_refuted.

Theorem C02_framer_any_chunking : forall msgs chunks,
  Forall (fun m => flen m < 65536) msgs -> concat chunks = stream msgs ->
  recv_loop (S (length msgs)) [] chunks = msgs.
Proof. exact framer_any_chunking. Qed.
Print Assumptions C02_framer_any_chunking.

(* ... and for a stream cut anywhere: a prefix of the messages, nothing else *)
Theorem C02_framer_stream_cut : forall msgs chunks k,
  Forall (fun m => flen m < 65536) msgs -> concat chunks = firstn k (stream msgs) ->
  exists j, recv_loop (S (length msgs)) [] chunks = firstn j msgs.
Proof.
  intros msgs chunks k Hs E. apply (recv_loop_stream_cut msgs k [] chunks); [exact Hs|exact E|apply le_n].
Qed.
Print Assumptions C02_framer_stream_cut.

(* --- over any number of forwarding hops --- *)

(* a forwarder re-encodes what it decoded: the packet it sends is the packet it received with
   the hop byte decremented, every other byte identical *)
Theorem C02_forward_preserves : forall hash self t b m,
  tbl_wf hash self t -> bytes_ok b = true -> decode_msg t b = DOk m ->
  nth 0 b 0 = 0 -> nth 2 b 0 = 0 -> nth 3 b 0 = 0 ->
  set_byte1 (encode_msg hash self m) (m_hops m - 1) = set_byte1 b (nth 1 b 0 - 1).
Proof. exact forward_preserves. Qed.
Print Assumptions C02_forward_preserves.

(* whatever the routing tables, connections and hash tables of the mesh are: what the handling of
   one datagram m causes ([walk]: its forwards, its closing event, its notice; not the reply a
   ping service sends) contains at most one hand-over to a listener; it happens on the addressed
   node, at the listener bound to the addressed service, and the packet handed over has m's source
   node and service, the addressee's and the payload unchanged.  For a send accepted by
   SendMessageWithHopsToLive m is [origin_msg src ..], whose source is the sending node
   (Proofs/Forward.v, accepted_send_is_walk); C10_nonvacuous has a walk that does deliver. *)
Theorem C02_delivered_only_to_addressee : forall w a m h,
  (forall n m', In (EDeliver n m') (walk w a m h) ->
     n = m_to m /\ w_listen w n (m_tsvc m) = true /\
     m_from m' = m_from m /\ m_fsvc m' = m_fsvc m /\ m_to m' = m_to m /\
     m_tsvc m' = m_tsvc m /\ m_data m' = m_data m)
  /\ (count_deliver (walk w a m h) <= 1)%nat.
Proof. exact delivered_only_to_addressee. Qed.
Print Assumptions C02_delivered_only_to_addressee.

(* non-vacuity: names at the 8-byte boundary satisfy the guard and round-trip through a table
   built by AddNameHash under an injective hash; a name with a trailing NUL does not *)
Example C02_nonvacuous :
  (svc_ok (str "abcdefgh"%string) = true /\ svc_ok [255] = true /\ svc_ok [97; 0] = false
   /\ strip_nul (pad8 [97; 0]) = [97])
  /\ let ns := [str "node-b"%string; str "c"%string] in
     let m := {| m_from := str "node-b"%string; m_fsvc := str "abcdefgh"%string;
                 m_to := str "a"%string; m_tsvc := [1]; m_hops := 30; m_data := [0; 255; 0] |} in
     decode_msg (add_names toy_hash (str "a"%string) (init_tbl toy_hash (str "a"%string)) ns)
                (encode_msg toy_hash (str "node-b"%string) m) = DOk m.
Proof.
  split; [|exact decode_encode_instance].
  exact (conj (proj1 svc_ok_eight) (conj (proj1 svc_ok_one) trailing_nul_lost)).
Qed.

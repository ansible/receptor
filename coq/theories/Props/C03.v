(* Props/C03.v — property C03: mesh streams are reliable ordered byte pipes despite loss and
   re-routing.  Statements and their assumptions; a proof of a few lines over the lemmas of Proofs/ stands
   here, the others are behind [exact].
   Model: Model/Bridge.v (utils.bridgeHalf, the stream-open marker of conn.go, and their
   composition with a QUIC stream).  PARTIAL by design: retransmission, congestion control and
   the idle timeout live in quic-go; the end-to-end theorems are conditional on the named
   hypothesis [quic_ok] about it, which `./check C03` samples on real lossy, duplicating,
   reordering and re-routed meshes but no proof covers.  What is receptor's own - the relay, the
   marker, their composition - is proved for every chunking, error position and write failure. *)
From Receptor Require Import Model.Bridge Proofs.Bridge.
Open Scope N_scope.

(* bridgeHalf: [cut] tells which reads are relayed (those up to the first read error, end of
   stream or failed write) and whether the relay then stops; the bytes written to the far side are
   the data of those reads, in order; if it stops there is exactly one Close and nothing after it,
   if the reads just run out (the relay is blocked in Read) there is none - for every sequence of
   Read results and Write results *)
Theorem C03_bridge_exact : forall rs ws,
  writes_of (bridge_half rs ws) = data_of (fst (cut rs ws)) /\
  closes_of (bridge_half rs ws) = (if snd (cut rs ws) then 1 else 0)%nat /\
  exists pre, bridge_half rs ws = pre ++ (if snd (cut rs ws) then [CClose] else []) /\ closes_of pre = 0%nat.
Proof. exact bridge_exact. Qed.
Print Assumptions C03_bridge_exact.

(* with working writes the relay is the identity on the stream, whatever the chunking and
   wherever the error: it writes exactly the bytes read before (and with) the first error, and
   closes exactly once iff the stream ended *)
Theorem C03_relay_is_identity : forall rs,
  writes_of (bridge_half rs []) = fst (stream_of rs) /\
  closes_of (bridge_half rs []) = match snd (stream_of rs) with ROk => 0%nat | _ => 1%nat end.
Proof. exact relay_is_identity. Qed.
Print Assumptions C03_relay_is_identity.

(* with failing writes it writes a prefix of the stream: nothing repeated, reordered or altered *)
Theorem C03_bridge_prefix : forall rs ws,
  exists rest, fst (stream_of rs) = writes_of (bridge_half rs ws) ++ rest.
Proof.
  intros rs ws. destruct (bridge_exact rs ws) as (H & _). rewrite H.
  destruct (cut_stream rs ws) as (rest & E & _). now exists rest.
Qed.
Print Assumptions C03_bridge_prefix.

(* the stream-open marker is invisible to the applications: whatever the chunking in which the
   dialler's bytes arrive, the acceptor hands on exactly the bytes after the first (zero) byte,
   and the same end of stream *)
Theorem C03_marker_transparent : forall rs d e,
  stream_of rs = (0 :: d, e) -> exists rest, accept_stream rs = Accepted rest /\ stream_of rest = (d, e).
Proof. exact marker_transparent. Qed.
Print Assumptions C03_marker_transparent.

(* ... and a stream that does not start with it is refused, never mistaken for data *)
Theorem C03_marker_refuses_other_first_byte : forall rs b d e,
  stream_of rs = (b :: d, e) -> (b =? 0) = false -> accept_stream rs = Refused.
Proof.
  intros rs b d e H Hb. pose proof (accept_stream_spec rs) as A. rewrite H in A. cbn [fst] in A.
  rewrite Hb in A. exact A.
Qed.
Print Assumptions C03_marker_refuses_other_first_byte.

Theorem C03_marker_refuses_empty_stream : forall rs e,
  stream_of rs = ([], e) -> accept_stream rs = Refused.
Proof. intros rs e H. pose proof (accept_stream_spec rs) as A. rewrite H in A. exact A. Qed.
Print Assumptions C03_marker_refuses_empty_stream.

(* END TO END, conditional on [quic_ok fair quic]: for every fault schedule the hypothesis calls
   fair, what the acceptor's application reads is exactly what the dialler's application wrote,
   in order, followed by end-of-stream iff the dialler closed *)
Theorem C03_end_to_end : forall (sched : Type) (fair : sched -> bool) (quic : sched -> list call -> list rd),
  quic_ok fair quic ->
  forall sc app, fair sc = true -> wf_calls app = true ->
  exists rest, accept_stream (quic sc (dial_calls app)) = Accepted rest /\
               stream_of rest = (writes_of app, eof_if_closed app).
Proof. exact stream_dialler_to_acceptor. Qed.
Print Assumptions C03_end_to_end.

(* the other direction, acceptor to dialler, carries no marker: what its reader sees is the
   hypothesis itself, restated for the pair *)
Theorem C03_end_to_end_back : forall (sched : Type) (fair : sched -> bool) (quic : sched -> list call -> list rd),
  quic_ok fair quic ->
  forall sc app, fair sc = true -> wf_calls app = true ->
  stream_of (quic sc app) = (writes_of app, eof_if_closed app).
Proof. exact stream_acceptor_to_dialler. Qed.
Print Assumptions C03_end_to_end_back.

(* TCP client -> inbound proxy -> stream -> outbound proxy -> TCP server, and the control
   service's connect, with no failing write at either relay ([bridge_half _ []]): the identity
   on byte sequences, end-of-stream propagated after all data; this theorem is the direction of
   the dialling proxy's client, the next one the other direction *)
Theorem C03_end_to_end_through_relays : forall (sched : Type) (fair : sched -> bool) (quic : sched -> list call -> list rd),
  quic_ok fair quic ->
  forall sc rs, fair sc = true ->
  exists rest, accept_stream (quic sc (dial_calls (bridge_half rs []))) = Accepted rest /\
    writes_of (bridge_half rest []) = fst (stream_of rs) /\
    closes_of (bridge_half rest []) = (if ended (snd (stream_of rs)) then 1 else 0)%nat.
Proof.
  intros sched fair quic Hq sc rs F.
  destruct (stream_dialler_to_acceptor sched fair quic Hq sc (bridge_half rs []) F (wf_bridge_half rs []))
    as [rest [A S]].
  exists rest. split; [exact A | apply relay_of_relayed, S].
Qed.
Print Assumptions C03_end_to_end_through_relays.

Theorem C03_end_to_end_through_relays_back : forall (sched : Type) (fair : sched -> bool) (quic : sched -> list call -> list rd),
  quic_ok fair quic ->
  forall sc rs, fair sc = true ->
  writes_of (bridge_half (quic sc (bridge_half rs [])) []) = fst (stream_of rs) /\
  closes_of (bridge_half (quic sc (bridge_half rs [])) []) = (if ended (snd (stream_of rs)) then 1 else 0)%nat.
Proof.
  intros sched fair quic Hq sc rs F.
  apply relay_of_relayed, (stream_acceptor_to_dialler sched fair quic Hq); [exact F | apply wf_bridge_half].
Qed.
Print Assumptions C03_end_to_end_through_relays_back.

(* CloseConnection itself is not modelled.  These three are about [abort_ok], the check that is
   evaluated on the real reads of streams whose writing side ended the whole connection while
   written bytes were still undelivered (CAbort cases): what it accepts is a prefix of what was
   written, and never an early end-of-stream - a reader told end-of-stream has every byte, written
   by a writer that closed; the undisturbed outcome is among what it accepts *)
Theorem C03_abrupt_end_prefix : forall written read, abort_ok written read = true ->
  exists rest, writes_of written = fst (stream_of read) ++ rest.
Proof.
  intros w r H. apply abort_ok_spec in H. destruct (snd (stream_of r)); try exact H.
  destruct H as [-> _]. exists []. now rewrite app_nil_r.
Qed.
Print Assumptions C03_abrupt_end_prefix.

Theorem C03_abrupt_end_no_early_eof : forall written read, abort_ok written read = true ->
  snd (stream_of read) = REof ->
  fst (stream_of read) = writes_of written /\ closes_of written <> 0%nat.
Proof. intros w r H E. apply abort_ok_spec in H. rewrite E in H. exact H. Qed.
Print Assumptions C03_abrupt_end_no_early_eof.

Theorem C03_abrupt_end_allows_exact : forall written read,
  stream_of read = (writes_of written, eof_if_closed written) -> abort_ok written read = true.
Proof.
  intros w r H. apply abort_ok_spec. rewrite H. unfold eof_if_closed.
  destruct (closes_of w); cbn; [exists []; now rewrite app_nil_r | now split].
Qed.
Print Assumptions C03_abrupt_end_allows_exact.

(* the hypothesis is satisfiable, and the relay theorems are about something *)
Example C03_hypothesis_satisfiable : quic_ok (fun _ : unit => true) perfect_stream.
Proof.
  intros sc calls _ _. unfold perfect_stream. cbn [stream_of r_stat r_data].
  unfold eof_if_closed. destruct (Nat.eqb (closes_of calls) 0); cbn; now rewrite ?app_nil_r.
Qed.
Example C03_nonvacuous :
  bridge_half [mkrd [1; 2] ROk; mkrd [] ROk; mkrd [3] ROk; mkrd [4; 5] REof; mkrd [6] ROk] []
  = [CWrite [1; 2]; CWrite [3]; CWrite [4; 5]; CClose] /\
  bridge_half [mkrd [1; 2] ROk; mkrd [3] ROk; mkrd [4] ROk] [WOk; WShort]
  = [CWrite [1; 2]; CWrite [3]; CClose] /\
  bridge_half [mkrd [1] ROk; mkrd [] RErr] [] = [CWrite [1]; CClose] /\
  bridge_half [mkrd [1] ROk] [] = [CWrite [1]].
Proof. exact bridge_examples. Qed.
Example C03_abrupt_end_nonvacuous :
  abort_ok [CWrite [1; 2; 3]; CClose] [mkrd [1] ROk; mkrd [] RErr] = true /\
  abort_ok [CWrite [1; 2; 3]; CClose] [mkrd [] RErr] = true /\
  abort_ok [CWrite [1; 2; 3]; CClose] [mkrd [1; 2] ROk; mkrd [3] REof] = true /\
  abort_ok [CWrite [1; 2; 3]; CClose] [mkrd [1] ROk; mkrd [] REof] = false /\
  abort_ok [CWrite [1; 2; 3]; CClose] [mkrd [] REof] = false /\
  abort_ok [CWrite [1; 2; 3]] [mkrd [1; 2; 3] ROk; mkrd [] REof] = false /\
  abort_ok [CWrite [1; 2; 3]; CClose] [mkrd [1; 3] ROk; mkrd [] RErr] = false.
Proof. exact abort_examples. Qed.

(* Props/C04.v — property C04: acknowledged work units survive crash/restart with identity and
   outcome.  Statements and their assumptions; a proof of a few lines over the lemmas of Proofs/ stands
   here, the others are behind [exact].
   Models: Model/Fs.v (file system, atomic operations, a kill = a prefix), Model/Status.v (the
   record and when a file content is one), Model/Crash.v (every workceptor operation as its
   file-system steps; histories of the daemon and of the command runner; [recover] =
   scanForUnit + Restart), Model/CrashMirror.v (the output mirror of a remote unit after a
   restart), tied to the code by `./check C04`.

   The statement at full strength ([C04_full_statement]: for every scenario, every interleaving
   of daemon and runner, every step at which the daemon can die) does NOT hold of the code as it
   is: [C04_refuted].  What holds is [C04_partial]: every crash point outside the two
   truncate->write windows.  The refuting crash is replayed on the real binary by the harness
   (VERIF_CRASH=update.truncated:n); see known_findings.json. *)
From Receptor Require Import Model.Crash Model.CrashMirror Proofs.Fs Proofs.Status Proofs.Crash Proofs.CrashMirror.
Open Scope N_scope.

(* each step of the unit model is the file-system operation it stands for *)
Theorem C04_model_is_fs : forall u fs o,
  well_typed u fs ->
  project u (apply_op fs (fsop_of u o)) = uapply (project u fs) o /\
  well_typed u (apply_op fs (fsop_of u o)).
Proof. exact project_apply. Qed.
Print Assumptions C04_model_is_fs.

(* ... and leaves every path outside the unit's directory as it was (one operation at a time) *)
Theorem C04_units_independent : forall u o fs q,
  is_under (unitp u) q = false -> fs_get (apply_op fs (fsop_of u o)) q = fs_get fs q.
Proof. exact fsop_frame. Qed.
Print Assumptions C04_units_independent.

(* what is written is read back; an empty file is not a record *)
Theorem C04_record_round_trip : forall s, parse (encode s) = Some s.
Proof. exact parse_encode. Qed.
Print Assumptions C04_record_round_trip.

Theorem C04_empty_is_no_record : parse [] = None.
Proof. exact parse_nil. Qed.
Print Assumptions C04_empty_is_no_record.

(* A local command unit that has FINISHED (Succeeded, 5 bytes of output).  The daemon is killed
   between the truncation and the rewrite of the record in which it clears the runner's PID.
   After the restart the unit is listed as Failed, with an empty work type that is not a known
   one ("Unknown WorkType"), and one more restart answers the same. *)
Theorem C04_refuted :
  wf_scenario witness_sc = true /\ cp_runner witness_cp = false /\
  in_window witness_sc witness_cp = true /\
  let o := experiment witness_sc witness_cp in
  o_acked o = true /\
  o_before o = Some (mkStatus S_SUCCEEDED 5 emit_t (XCmd 4242)) /\
  v_listed (o_restart o) = true /\ v_known (o_restart o) = false /\
  v_status (o_restart o) = mkStatus S_FAILED 5 [] XNone /\
  v_status (o_again o) = mkStatus S_FAILED 5 [] XNone /\
  holds witness_sc witness_cp = false.
Proof. exact C04_refuted_thm. Qed.
Print Assumptions C04_refuted.

Theorem C04_full_statement_is_false : ~ C04_full_statement.
Proof. exact C04_full_statement_refuted. Qed.
Print Assumptions C04_full_statement_is_false.

(* the same window while the unit has not been started yet: the work type is lost *)
Theorem C04_refuted_never_started :
  in_window witness_sc witness_cp_pending = true /\
  let o := experiment witness_sc witness_cp_pending in
  o_acked o = true /\ s_wtype (v_status (o_restart o)) = [] /\ v_known (o_restart o) = false /\
  holds witness_sc witness_cp_pending = false.
Proof. vm_compute. repeat split; reflexivity. Qed.
Print Assumptions C04_refuted_never_started.

(* ... and for a remote unit started on node "b": work type and binding are lost *)
Theorem C04_refuted_remote :
  wf_scenario witness_remote = true /\ in_window witness_remote witness_cp_remote = true /\
  let o := experiment witness_remote witness_cp_remote in
  o_acked o = true /\
  o_before o = Some (mkStatus S_PENDING 0 remote_name (XRemote [98] emit_t [85; 49] true)) /\
  v_status (o_restart o) = mkStatus S_FAILED 0 [] XNone /\
  holds witness_remote witness_cp_remote = false.
Proof. vm_compute. repeat split; reflexivity. Qed.
Print Assumptions C04_refuted_remote.

(* the quantifier of the property also names the death of the runner process: when the runner
   is killed (here between two rewrites, no window involved) nobody ever records the end of the
   unit — it is Running after the run-out and after one more restart; in the model the output
   stops with the runner, whose operations the appends are *)
Theorem C04_runner_killed_never_completes :
  let o := experiment witness_sc witness_cp_runner in
  o_acked o = true /\ in_window witness_sc witness_cp_runner = false /\
  s_wtype (v_status (o_restart o)) = emit_t /\
  s_state (v_status (o_final o)) = S_RUNNING /\
  s_state (v_status (o_again o)) = S_RUNNING /\
  stdout_content (o_final_fs o) = [1; 2; 3].
Proof. vm_compute. repeat split; reflexivity. Qed.
Print Assumptions C04_runner_killed_never_completes.

(* For EVERY scenario (local command or remote work, any output, any exit status),
   EVERY interleaving of the daemon's and the producer's operations, EVERY operation and step at
   which the daemon dies EXCEPT between the truncation and the rewrite of a status record, and any
   progress of a surviving runner while the node is down: a unit whose ID had been returned is
   listed with its work type and binding; if it had finished it reports the same state and size
   and its output is complete; if it is being produced it is followed to a finished state with the
   full size and output; if it never started it is Failed; and one more crash/restart changes
   nothing. *)
Theorem C04_partial : forall sc cp,
  wf_scenario sc = true -> cp_runner cp = false -> in_window sc cp = false -> holds sc cp = true.
Proof. exact C04_partial_thm. Qed.
Print Assumptions C04_partial.

(* After the first restart of a unit at rest — with an intact record,
   or with the record emptied in the window, whose first restart already is the loss — any
   number of further kill/restart cycles answers the same *)
Theorem C04_crash_recovery_idempotent : forall types x k,
  uf_dir x = true -> (exists s, uf_status x = Some (encode s)) \/ uf_status x = Some [] ->
  same_answer (snd (recover types (cycles types x (S k)))) (snd (recover types (cycles types x 1))).
Proof. exact crash_recovery_idempotent_thm. Qed.
Print Assumptions C04_crash_recovery_idempotent.

(* final states are fixed points of recovery: a unit at rest in ANY final state the code records —
   Succeeded, Failed, Canceled; command, started remote, or of an unknown type — with an intact
   record is answered with exactly that record after a restart, and nothing but the lock file is
   touched; the same after any number of restarts *)
Theorem C04_final_states_fixed : forall types x s,
  uf_dir x = true -> uf_status x = Some (encode s) -> st_final (s_state s) = true ->
  (kind_of types (s_wtype s) = KRemote -> started s = true) ->
  exists known mon,
    recover types x = (locked x, mkView true known s mon) /\ core (locked x) = core x.
Proof. exact final_states_fixed_thm. Qed.
Print Assumptions C04_final_states_fixed.

Theorem C04_final_states_fixed_cycles : forall types x s k,
  uf_dir x = true -> uf_status x = Some (encode s) -> st_final (s_state s) = true ->
  (kind_of types (s_wtype s) = KRemote -> started s = true) ->
  core (cycles types x k) = core x /\ v_status (snd (recover types (cycles types x k))) = s.
Proof. exact final_states_fixed_cycles_thm. Qed.
Print Assumptions C04_final_states_fixed_cycles.

(* a remote unit that never started and has Failed (its time to live ran out, it was cancelled
   locally, an earlier restart failed it), whose recorded size is the size of its output file, is
   marked Failed again by a restart: the record — state, size, work type, binding — is rewritten
   as it was (so the next restart finds the same) *)
Theorem C04_failed_unstarted_remote_fixed : forall types x s,
  uf_dir x = true -> uf_status x = Some (encode s) ->
  kind_of types (s_wtype s) = KRemote -> started s = false ->
  s_state s = S_FAILED -> s_size s = stdout_size x ->
  snd (recover types x) = mkView true true s false /\
  uf_status (fst (recover types x)) = Some (encode s) /\ core (fst (recover types x)) = core x.
Proof.
  intros types x s Hd Hs Hk Hst Hf Hz.
  rewrite (recover_unstarted_remote types x s Hd Hs Hk Hst), (failed_rec_fixed x s Hf Hz).
  split; [reflexivity|]. split; [reflexivity|]. now apply with_status_same.
Qed.
Print Assumptions C04_failed_unstarted_remote_fixed.

(* The start-up scan over the whole data directory (scanForUnits): what it does with the entry
   of a name, and what the daemon then answers for it, is what it does with that entry alone —
   no other entry's presence, content or failure and no position in the directory order enters. *)
Theorem C04_scan_independent : forall types d n,
  dlookup n (scan_dir types d) = option_map (scan_entry types) (dlookup n d).
Proof. exact scan_independent_thm. Qed.
Print Assumptions C04_scan_independent.

Theorem C04_scan_other_entries_irrelevant : forall types d1 d2 n,
  dlookup n d1 = dlookup n d2 ->
  dlookup n (scan_dir types d1) = dlookup n (scan_dir types d2).
Proof. intros types d1 d2 n H. now rewrite !scan_independent_thm, H. Qed.
Print Assumptions C04_scan_other_entries_irrelevant.

(* whatever is put in front of, behind or between: a unit is recovered as if it were alone *)
Theorem C04_scan_crowd_irrelevant : forall types before after n x,
  dlookup n before = None ->
  dlookup n (scan_dir types (before ++ (n, DUnit x) :: after)) = Some (scan_entry types (DUnit x)).
Proof.
  intros types before after n x Hb.
  now rewrite scan_independent_thm, (dlookup_app_skip _ _ _ Hb), dlookup_here.
Qed.
Print Assumptions C04_scan_crowd_irrelevant.

(* a scan that gives up at the first entry it counts as a failure (whatever the criterion) never
   reaches the unit behind it; the real one does *)
Theorem C04_scan_stop_at_first_failure_refuted : forall fails types n1 n2 e x,
  fails e = true -> n1 <> n2 ->
  dlookup n2 (scan_stop fails types [(n1, e); (n2, DUnit x)]) = None /\
  dlookup n2 (scan_dir types [(n1, e); (n2, DUnit x)]) = Some (scan_entry types (DUnit x)).
Proof. exact scan_stop_refuted_thm. Qed.
Print Assumptions C04_scan_stop_at_first_failure_refuted.

(* Remote work, the output behind the record: a started remote unit with an intact record in ANY
   state (Succeeded and Failed included) and ANY number of output bytes stored is monitored again
   after the restart; its record is answered unchanged and, the executing node holding the
   output, `work results` ends with everything up to the recorded size. *)
Theorem C04_output_behind_record_recovered : forall types x s,
  uf_dir x = true -> uf_status x = Some (encode s) ->
  kind_of types (s_wtype s) = KRemote -> started s = true ->
  let v := snd (recover types x) in
  v_listed v = true /\ v_status v = s /\ v_monitored v = true /\
  forall stored remote_len, s_size s <= remote_len ->
    results_end v (stored_in_the_end v stored remote_len) = true.
Proof.
  intros types x s Hd Hs Hk Hst. rewrite (recover_started_remote types x s Hd Hs Hk Hst).
  repeat split. intros stored rl Hle. now apply monitored_results_end.
Qed.
Print Assumptions C04_output_behind_record_recovered.

(* ... whereas the command unit's rule (a complete unit is not monitored again) on a remote unit
   leaves fewer bytes than recorded for ever: `work results` never ends *)
Theorem C04_remote_skip_complete_refuted : forall types x s stored remote_len,
  uf_dir x = true -> uf_status x = Some (encode s) -> st_complete (s_state s) = true ->
  kind_of types (s_wtype s) = KRemote -> started s = true -> stored < s_size s ->
  let v := snd (recover_skip_complete types x) in
  v_status v = s /\ stored_in_the_end v stored remote_len = stored /\
  results_end v (stored_in_the_end v stored remote_len) = false.
Proof.
  intros types x s stored rl Hd Hs Hc Hk Hst Hlt.
  rewrite (recover_skip_complete_remote types x s Hd Hs Hc Hk Hst).
  split; [reflexivity|]. now apply unmonitored_results_open.
Qed.
Print Assumptions C04_remote_skip_complete_refuted.

(* the hypotheses of C04_partial are satisfiable by a non-trivial history: the finished unit of
   the refutation, the same operation of the daemon, killed one step later (after the rewrite) *)
Example C04_nonvacuous :
  wf_scenario witness_sc = true /\ cp_runner witness_cp_after = false /\
  in_window witness_sc witness_cp_after = false /\
  o_acked (experiment witness_sc witness_cp_after) = true /\
  v_status (o_restart (experiment witness_sc witness_cp_after)) = mkStatus S_SUCCEEDED 5 emit_t XNone.
Proof. vm_compute. repeat split; reflexivity. Qed.

(* Props/C05.v — property C05: work results stream exactly the output from any offset and end
   when complete; the local copy of a remote unit's output is always a prefix of the remote
   output and becomes equal to it whatever the link does.
   Statements and their assumptions; a proof of a few lines over the lemmas of Proofs/ stands
   here, the others are behind [exact].  Models: Model/Results.v (Workceptor.GetResults after "fix: work results of a
   cancelled unit end"), Model/Mirror.v (monitorRemoteStatus / monitorRemoteStdout), Model/Writer.v
   (STDoutWriter and the command runner as producers), tied to the code by `./check C05`. *)
From Receptor Require Import Model.Results Model.Writer Model.Mirror Proofs.Results Proofs.Writer Proofs.Mirror.
Open Scope N_scope.

(* For EVERY trace — every output, chunking and timing of the producer, every start offset, every
   moment of asking and every polling schedule, read sizes included — and for either finish
   predicate: the bytes sent so far are a prefix of output[start..]: in order, no gap, no repeat. *)
Theorem C05_results_prefix : forall done start tr,
  is_prefix (concat (fst (results_run_with done start tr)))
            (skipn (N.to_nat start) (output_of tr)) = true.
Proof.
  intros d s tr. unfold results_run_with.
  destruct (run_from_rinv d s tr world0 RWait [] (rinv0 s)) as (cs & phf & -> & [Hr _]).
  apply is_prefix_spec. exact Hr.
Qed.
Print Assumptions C05_results_prefix.

(* results_exact: under the producer's contract (append-only is built into the events; a finishing
   status is written after the last append and carries the final size) the stream, if it has
   ended, has delivered exactly output[start..] of the final output — and it has not ended before
   the unit was done. *)
Theorem C05_results_exact : forall start tr,
  contract tr = true ->
  let '(cs, fin) := results_run start tr in
  is_prefix (concat cs) (skipn (N.to_nat start) (output_of tr)) = true /\
  (fin = true ->
   concat cs = skipn (N.to_nat start) (output_of tr) /\
   results_done (w_state (world_after tr)) = true).
Proof. exact results_exact_thm. Qed.
Print Assumptions C05_results_exact.

(* ... and that output is final: whatever happens afterwards, nothing is added to it and the
   finished stream stays as it is *)
Theorem C05_results_final : forall start tr tr',
  contract (tr ++ tr') = true -> snd (results_run start tr) = true ->
  output_of (tr ++ tr') = output_of tr /\
  snd (results_run start (tr ++ tr')) = true /\
  fst (results_run start (tr ++ tr')) = fst (results_run start tr).
Proof. exact results_final_thm. Qed.
Print Assumptions C05_results_final.

(* the size of the reads and the timing of the polls are irrelevant to what a stream that has
   ended has delivered *)
Theorem C05_results_schedule_irrelevant : forall start tr1 tr2,
  contract tr1 = true -> contract tr2 = true -> env_only tr1 = env_only tr2 ->
  snd (results_run start tr1) = true -> snd (results_run start tr2) = true ->
  concat (fst (results_run start tr1)) = concat (fst (results_run start tr2)).
Proof.
  intros s tr1 tr2 H1 H2 He F1 F2.
  destruct (results_finished_m s tr1 (contract_contract_m _ H1) F1) as [-> _].
  destruct (results_finished_m s tr2 (contract_contract_m _ H2) F2) as [-> _].
  unfold output_of, world_after.
  rewrite <- (world_after_env_only tr1), <- (world_after_env_only tr2). now rewrite He.
Qed.
Print Assumptions C05_results_schedule_irrelevant.

(* one step, without any assumption on the recorded size: the stream ends only on a done unit, and
   either after a read at end-of-file at a position that the recorded size does not exceed, or
   because there is no stdout file at all (then nothing is said about the recorded size) *)
Theorem C05_results_never_earlier : forall done start w ph n,
  ph <> RDone -> fst (reader_step done start w ph n) = RDone ->
  done (w_state w) = true /\ (w_file w = None \/ exists pos, ph = REof pos /\ w_size w <= pos).
Proof. exact reader_finish_covers_thm. Qed.
Print Assumptions C05_results_never_earlier.

(* once the unit is done, the stream ends after at most |output| + 4 further steps of the reader *)
Theorem C05_results_terminates_when_complete : forall start tr polls,
  contract tr = true ->
  results_done (w_state (world_after tr)) = true ->
  (length (output_of tr) + 4 <= length polls)%nat ->
  snd (results_run start (tr ++ map EPoll polls)) = true.
Proof. exact results_terminates_thm. Qed.
Print Assumptions C05_results_terminates_when_complete.

(* Mirrored units.  On the submitting node the record of a remote unit usually becomes final while
   most of its output is still on its way: the producer's contract does not hold there.  Under
   [contract_m] (the local copy exists, is never longer than a final record's size, a final record
   stays) a session that has ended has delivered exactly output[start..], reaching the RECORDED
   size, and whenever the start offset lies below that size the copy was complete when it ended:
   never earlier. *)
Theorem C05_results_exact_mirrored : forall start tr,
  contract_m tr = true ->
  let '(cs, fin) := results_run start tr in
  is_prefix (concat cs) (skipn (N.to_nat start) (output_of tr)) = true /\
  (fin = true ->
   concat cs = skipn (N.to_nat start) (output_of tr) /\
   results_done (w_state (world_after tr)) = true /\
   w_size (world_after tr) <= start + rlen (concat cs) /\
   (start < w_size (world_after tr) -> rlen (output_of tr) = w_size (world_after tr))).
Proof. exact results_exact_mirrored_thm. Qed.
Print Assumptions C05_results_exact_mirrored.

(* ... and what the mirror does afterwards changes nothing of it *)
Theorem C05_results_final_mirrored : forall start tr tr',
  contract_m (tr ++ tr') = true -> snd (results_run start tr) = true ->
  skipn (N.to_nat start) (output_of (tr ++ tr')) = skipn (N.to_nat start) (output_of tr) /\
  snd (results_run start (tr ++ tr')) = true /\
  fst (results_run start (tr ++ tr')) = fst (results_run start tr).
Proof. exact results_final_mirrored_thm. Qed.
Print Assumptions C05_results_final_mirrored.

(* once the record is final and the copy has reached the recorded size the stream ends (no
   contract is needed for that) *)
Theorem C05_results_terminates_mirrored : forall start tr polls,
  results_done (w_state (world_after tr)) = true ->
  w_size (world_after tr) = rlen (output_of tr) ->
  (length (output_of tr) + 4 <= length polls)%nat ->
  snd (results_run start (tr ++ map EPoll polls)) = true.
Proof. exact results_terminates_mirrored_thm. Qed.
Print Assumptions C05_results_terminates_mirrored.

(* A reader whose finish condition compares the position with the current size of the stdout FILE
   instead of the recorded size: for a local unit (producer's contract) it is the real reader ... *)
Theorem C05_filesize_reader_same_on_local_units : forall start tr,
  contract tr = true -> results_run_filesize start tr = results_run start tr.
Proof.
  intros s tr Hc. unfold contract in Hc. rewrite contract_along in Hc.
  unfold results_run_filesize, results_run, results_run_with.
  now rewrite (run_from_filesize_same results_done s tr world0 RWait Hc (winv0 results_done eq_refl)).
Qed.
Print Assumptions C05_filesize_reader_same_on_local_units.

(* ... on a mirrored unit it ends as soon as the record is final — 2 of 5 bytes and a clean end,
   where the real reader waits and delivers all 5: an early end *)
Theorem C05_filesize_results_refuted :
  contract_m early_end_witness = true /\
  w_size (world_after early_end_witness) = 5 /\ output_of early_end_witness = [1; 2; 3; 4; 5] /\
  results_run_filesize 0 early_end_witness = ([[1; 2]], true) /\
  results_run 0 early_end_witness = ([[1; 2]; [3; 4; 5]], true) /\
  ~ (forall start tr, contract_m tr = true -> snd (results_run_filesize start tr) = true ->
       concat (fst (results_run_filesize start tr)) = skipn (N.to_nat start) (output_of tr)).
Proof. exact results_filesize_refuted_thm. Qed.
Print Assumptions C05_filesize_results_refuted.

(* the finish condition of the pinned tree (IsComplete: Succeeded or Failed) never ends the
   results of a cancelled unit, however long the client waits; the repaired one does *)
Theorem C05_pinned_results_refuted :
  contract cancel_witness = true /\
  w_state (world_after cancel_witness) = ST_CANCELED /\
  (forall polls, snd (results_run_pinned 0 (cancel_witness ++ map EPoll polls)) = false) /\
  (forall polls, (6 <= length polls)%nat ->
     snd (results_run 0 (cancel_witness ++ map EPoll polls)) = true).
Proof. exact results_pinned_refuted_thm. Qed.
Print Assumptions C05_pinned_results_refuted.

(* mirror_prefix: after every step of every history — remote writes, status copies, requests,
   deliveries of any size, and a break of the connection at ANY point, any number of times — the
   local stdout is a prefix of the remote stdout *)
Theorem C05_mirror_prefix : forall tr,
  is_prefix (m_local (mrun tr)) (m_remote_out (mrun tr)) = true.
Proof. exact mirror_prefix_thm. Qed.
Print Assumptions C05_mirror_prefix.

(* ... and never shrinks *)
Theorem C05_mirror_monotone : forall tr tr',
  is_prefix (m_local (mrun tr)) (m_local (mrun (tr ++ tr'))) = true.
Proof.
  intros tr tr'. unfold mrun. rewrite mrun_from_app. apply is_prefix_spec, mrun_local_grows.
Qed.
Print Assumptions C05_mirror_monotone.

(* mirror_converges: from whatever state the breaks have left the mirror in, once the remote unit
   is complete and nothing breaks any more, the loop (stream runs out; status copied; look; stream
   runs out; look) ends with the stdout monitor stopped and the local output equal to the remote *)
Theorem C05_mirror_converges : forall tr k,
  contract (menv tr) = true ->
  is_complete (w_state (m_remote (mrun tr))) = true ->
  (length (m_remote_out (mrun tr)) + 4 <= k)%nat ->
  let s' := mrun_from (mrun tr) (settle k) in
  m_mode s' = MStopped /\ m_local s' = m_remote_out s' /\ m_remote_out s' = m_remote_out (mrun tr).
Proof. exact mirror_converges_thm. Qed.
Print Assumptions C05_mirror_converges.

(* mirror_converges for EVERY final state of the remote unit — Succeeded, Failed, Canceled: once
   nothing breaks any more the local output becomes equal to the remote output and no stream stays
   open.  (IsComplete does not cover Canceled, so for a cancelled unit the stdout monitor goes on
   looking once a second instead of returning; it has fetched everything all the same.) *)
Theorem C05_mirror_converges_every_final_state : forall tr k,
  contract (menv tr) = true ->
  results_done (w_state (m_remote (mrun tr))) = true ->
  (length (m_remote_out (mrun tr)) + 4 <= k)%nat ->
  let s' := mrun_from (mrun tr) (settle k) in
  m_local s' = m_remote_out s' /\ m_remote_out s' = m_remote_out (mrun tr) /\
  (forall start ph, m_mode s' <> MStream start ph) /\
  (is_complete (w_state (m_remote (mrun tr))) = true -> m_mode s' = MStopped).
Proof. exact mirror_converges_done_thm. Qed.
Print Assumptions C05_mirror_converges_every_final_state.

(* the stdout monitor never stops early: whenever it has returned, the local output is the whole
   remote output of a finished unit *)
Theorem C05_mirror_stops_only_when_equal : forall tr,
  contract (menv tr) = true -> m_mode (mrun tr) = MStopped ->
  m_local (mrun tr) = m_remote_out (mrun tr) /\
  results_done (w_state (m_remote (mrun tr))) = true.
Proof. intros tr Hc. destruct (mrun_invs tr Hc). now apply stopped_equal. Qed.
Print Assumptions C05_mirror_stops_only_when_equal.

(* ... and stays so *)
Theorem C05_mirror_stable : forall tr tr',
  m_mode (mrun tr) = MStopped ->
  m_mode (mrun (tr ++ tr')) = MStopped /\ m_local (mrun (tr ++ tr')) = m_local (mrun tr).
Proof.
  intros tr tr' H. unfold mrun. rewrite mrun_from_app. now apply mrun_stopped_stays.
Qed.
Print Assumptions C05_mirror_stable.

(* mirror_header_any_chunking: on the wire the output of a results stream follows one header
   line, and a byte stream may deliver both in reads of any sizes — the header split at any position,
   its end in the same read as the first output bytes.  For EVERY such chunking the mirror
   (line read through the buffered reader, then copy from that same reader) takes exactly the header
   and appends exactly the bytes that follow it. *)
Theorem C05_mirror_header_any_chunking : forall reads hdr body,
  no_nl hdr = true -> concat reads = hdr ++ 10 :: body ->
  client_mirror reads = Some (hdr ++ [10], body).
Proof.
  intros reads hdr body Hh Hc. unfold client_mirror.
  destruct (read_line_spec reads [] hdr body Hh Hc) as [bf [r [E B]]]. rewrite E. simpl. now rewrite B.
Qed.
Print Assumptions C05_mirror_header_any_chunking.

(* ... whereas copying from the raw connection drops what was buffered behind the header *)
Theorem C05_mirror_raw_copy_refuted :
  let reads := [[83; 116]; [114; 10; 1; 2]; [3]] in
  client_mirror reads = Some ([83; 116; 114; 10], [1; 2; 3]) /\
  client_mirror_raw reads = Some ([83; 116; 114; 10], [3]).
Proof. split; reflexivity. Qed.
Print Assumptions C05_mirror_raw_copy_refuted.

(* the hypotheses are satisfiable by non-trivial histories: a producer with running ticks read
   from offset 1 with reads of several sizes; a transfer cut twice that then converges *)
Example C05_nonvacuous_results :
  contract contract_example = true /\
  results_run 1 contract_example = ([[2; 3]; [4]; [5; 6]], true).
Proof. split; reflexivity. Qed.

Example C05_nonvacuous_mirror :
  contract (menv mirror_example) = true /\
  m_local (mrun mirror_example) = [1; 2; 3; 4; 5] /\
  m_local (mrun (mirror_example ++ settle 10)) = [1; 2; 3; 4; 5; 6] /\
  m_mode (mrun (mirror_example ++ settle 10)) = MStopped.
Proof. repeat split; reflexivity. Qed.

(* ---------- the in-process producer (STDoutWriter, stdio_utils.go) ----------
   For work types whose output is written by the daemon itself the producer's contract is not a
   hypothesis: for EVERY history of writes — any sizes, the file accepting any part of each write,
   with or without an error, the status save failing or not — Size() is the length of the file and
   the recorded size is never ahead of it ... *)
Theorem C05_writer_size_is_file_length : forall ops,
  ws_written (wrun ops) = rlen (ws_file (wrun ops)) /\
  ws_recorded (wrun ops) <= rlen (ws_file (wrun ops)).
Proof.
  intro ops. exact (w_steps_inv ops wstate0 winv_w0).
Qed.
Print Assumptions C05_writer_size_is_file_length.

(* ... one Write appends exactly the prefix it reports as written and nothing else ... *)
Theorem C05_writer_write_exact : forall s p a e sv,
  let '(s', (n, _)) := w_write false s p a e sv in
  n <= rlen p /\ ws_file s' = ws_file s ++ firstn (N.to_nat n) p /\
  ws_written s' = ws_written s + n /\ ws_state s' = ws_state s.
Proof. intros s p a e sv. rewrite w_write_false. cbn. repeat split. apply accepted_le. Qed.
Print Assumptions C05_writer_write_exact.

(* ... and a caller that records its finishing status last generates a trace that satisfies the
   producer's contract ... *)
Theorem C05_writer_keeps_contract : forall ops,
  disciplined ops = true -> contract (wtrace ops) = true.
Proof. exact writer_contract_thm. Qed.
Print Assumptions C05_writer_keeps_contract.

(* ... so that, with the reader's polls placed anywhere between the producer's actions, the
   results are a prefix of the file from the start offset and, once ended, exactly that — ended
   only after the finishing status ... *)
Theorem C05_writer_results_exact : forall ops start tr,
  disciplined ops = true -> env_only tr = wtrace ops ->
  let '(cs, fin) := results_run start tr in
  is_prefix (concat cs) (skipn (N.to_nat start) (ws_file (wrun ops))) = true /\
  (fin = true ->
   concat cs = skipn (N.to_nat start) (ws_file (wrun ops)) /\
   results_done (ws_state (wrun ops)) = true).
Proof.
  intros ops start tr Hd He. destruct (writer_world_thm ops) as (<- & <- & _).
  exact (results_exact_env_only start tr _ He (writer_contract_thm ops Hd)).
Qed.
Print Assumptions C05_writer_results_exact.

(* ... and they do end *)
Theorem C05_writer_results_terminate : forall ops start polls,
  disciplined ops = true -> results_done (ws_state (wrun ops)) = true ->
  (length (ws_file (wrun ops)) + 4 <= length polls)%nat ->
  snd (results_run start (wtrace ops ++ map EPoll polls)) = true.
Proof.
  intros ops start polls Hd. destruct (writer_world_thm ops) as (<- & <- & _).
  exact (results_terminates_thm start _ polls (writer_contract_thm ops Hd)).
Qed.
Print Assumptions C05_writer_results_terminate.

(* A writer that adds what it was ASKED to write instead of what the file accepted: after one
   short write the record is ahead of the output for good, the contract is broken and the results
   of the finished unit never end. *)
Theorem C05_writer_count_asked_refuted :
  disciplined asked_witness = true /\
  ws_recorded (wrun asked_witness) = 1 /\ ws_file (wrun asked_witness) = [1] /\
  results_run 0 (wtrace asked_witness ++ repeat (EPoll 65536) 5) = ([[1]], true) /\
  world_after (wtrace_asked asked_witness) = mkWorld (Some [1]) ST_SUCCEEDED 3 /\
  contract (wtrace_asked asked_witness) = false /\
  (forall polls, snd (results_run 0 (wtrace_asked asked_witness ++ map EPoll polls)) = false).
Proof. exact writer_count_asked_refuted_thm. Qed.
Print Assumptions C05_writer_count_asked_refuted.

(* ---------- the command runner as a producer (command.go) ----------
   The child writes the file, the runner records (Running, size now) at its ticks — a tick's save
   may fail — and one finishing status with the size as it is after the child has been waited for.
   For EVERY such history the producer's contract holds ... *)
Theorem C05_runner_keeps_contract : forall ops,
  exits_last ops = true -> contract (rtrace ops) = true.
Proof. exact runner_contract_thm. Qed.
Print Assumptions C05_runner_keeps_contract.

(* ... so the results of a command unit, with the reader's polls anywhere between the child's
   writes and the runner's ticks, are exact and end only after the recorded exit *)
Theorem C05_runner_results_exact : forall ops start tr,
  exits_last ops = true -> env_only tr = rtrace ops ->
  let '(cs, fin) := results_run start tr in
  is_prefix (concat cs) (skipn (N.to_nat start) (rs_file (rrun ops))) = true /\
  (fin = true ->
   concat cs = skipn (N.to_nat start) (rs_file (rrun ops)) /\
   results_done (rs_state (rrun ops)) = true).
Proof.
  intros ops start tr Hx He. destruct (runner_world_thm ops) as [<- <-].
  exact (results_exact_env_only start tr _ He (runner_contract_thm ops Hx)).
Qed.
Print Assumptions C05_runner_results_exact.

Example C05_nonvacuous_runner :
  exits_last runner_example = true /\
  rtrace runner_example =
    [ECreate; ESetStatus ST_RUNNING 0; EAppend [1; 2]; EAppend [3]; ESetStatus ST_RUNNING 3;
     EAppend [4; 5]; ESetStatus ST_FAILED 5] /\
  results_run 1 (rtrace runner_example ++ repeat (EPoll 2) 7) = ([[2; 3]; [4; 5]], true).
Proof. exact runner_example_ok. Qed.

(* short writes, errors with and without progress, a failing save, a finishing status: the
   hypotheses are met by such a history, read from offset 2 in reads of 3 bytes *)
Example C05_nonvacuous_writer :
  disciplined writer_example = true /\
  ws_file (wrun writer_example) = [1; 2; 3; 4; 5; 6; 7; 8] /\
  ws_recorded (wrun writer_example) = 8 /\
  fst (wobs_run wstate0 writer_example) =
    [mkObs 3 false 3 3 0; mkObs 2 true 5 5 0; mkObs 0 true 5 5 0; mkObs 2 true 7 5 0;
     mkObs 0 false 7 7 1; mkObs 1 false 8 8 1; mkObs 0 false 8 8 2] /\
  results_run 2 (wtrace writer_example ++ repeat (EPoll 3) 8) = ([[3; 4; 5]; [6; 7; 8]], true).
Proof. exact writer_example_ok. Qed.

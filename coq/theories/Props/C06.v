(* Props/C06.v — property C06: routing knowledge never regresses; updates are applied and
   relayed at most once, never back to the sender, so flooding terminates; a node never accepts
   an update naming itself from its own current run.
   Model: Model/Flood.v (handleRoutingUpdate, step-exact correspondence by `./check C06`) and
   Model/FloodWorld.v (a mesh of such nodes with arbitrary delivery order and loss). *)
From Receptor Require Import Model.FloodWorld Model.FloodCases Proofs.Flood Proofs.FloodWorld Proofs.FloodConc Proofs.FloodOrder.
From Coq Require Import Permutation Lia.
Open Scope N_scope.

(* 1. Along EVERY history of ordinary updates, expiries of seen IDs and lost connections (hence every
      delivery order, duplication and loss), the stored (epoch, sequence) of every origin only moves
      forward. *)
Theorem C06_info_monotone : forall h st o,
  Forall ordinary h -> pair_le (info_of st o) (info_of (fst (run st h)) o) = true.
Proof. exact flood_info_monotone. Qed.
Print Assumptions C06_info_monotone.

(* 2. An ordinary update older than or equal to the stored pair changes neither the stored pairs nor
      the connection picture, and is not relayed (its ID, if new, is still noted as seen). *)
Theorem C06_stale_no_effect : forall st u recv p,
  u_susp u = 0 -> aget (u_origin u) (ns_info st) = Some p -> lex_le (u_epoch u, u_seq u) p = true ->
  same_picture (fst (handle_update st u recv)) st /\ relay_obs (snd (handle_update st u recv)) = [].
Proof.
  intros st u recv p Hs Hp Hle.
  destruct (effect_only_if_fresh st u recv) as [H|(_ & _ & Hnew)]; [exact H|].
  specialize (Hnew Hs). unfold info_of in Hnew. rewrite Hp in Hnew. simpl in Hnew. congruence.
Qed.
Print Assumptions C06_stale_no_effect.

(* 3. A replay of an update ID already seen changes neither the stored pairs nor the connection
      picture, and is not relayed. *)
Theorem C06_replay_no_effect : forall st u recv,
  mem_N (u_id u) (ns_seen st) = true ->
  same_picture (fst (handle_update st u recv)) st /\ relay_obs (snd (handle_update st u recv)) = [].
Proof.
  intros st u recv Hseen.
  destruct (effect_only_if_fresh st u recv) as [H|(_ & Hnew & _)]; [exact H|congruence].
Qed.
Print Assumptions C06_replay_no_effect.

(* 4. A genuine (newer, unseen, foreign) update is applied: recorded with its pair and its
      connections (a nil connection list for an origin without a row leaves it without one, as
      reflect.DeepEqual holds nil equal to missing; the third alternative is a case of the first). *)
Theorem C06_fresh_applied : forall st u recv,
  u_susp u = 0 -> u_origin u <> 0 -> conns_pos (u_conns u) = true -> u_origin u <> ns_self st ->
  mem_N (u_id u) (ns_seen st) = false ->
  pair_le (Some (u_epoch u, u_seq u)) (info_of st (u_origin u)) = false ->
  let st' := fst (handle_update st u recv) in
  info_of st' (u_origin u) = Some (u_epoch u, u_seq u)
  /\ (aget (u_origin u) (ns_known st') = Some (conns_of (u_conns u))
      \/ (u_conns u = None /\ aget (u_origin u) (ns_known st) = None /\ ns_known st' = ns_known st)
      \/ (exists a, u_conns u = Some a /\ conns_equal (Some a) (aget (u_origin u) (ns_known st)) = true
                    /\ ns_known st' = ns_known st)).
Proof. exact fresh_update_recorded. Qed.
Print Assumptions C06_fresh_applied.

(* 5. Between expiries of its ID an update is relayed in at most one step of ANY history. *)
Theorem C06_relay_at_most_once : forall h st x,
  Forall (no_expire x) h -> (count_relay_steps x (snd (run st h)) <= 1)%nat.
Proof. exact relay_at_most_once. Qed.
Print Assumptions C06_relay_at_most_once.

(* 6. A relay never goes back to the neighbour the update came from, goes only to real
      connections, carries the relaying node as forwarder and the ID and origin of the update. *)
Theorem C06_relay_never_back : forall st u recv c u',
  In (Relay c u') (snd (handle_update st u recv)) ->
  c <> recv /\ In c (ns_conns st) /\ u_fwd u' = ns_self st /\ u_id u' = u_id u
  /\ u_origin u' = u_origin u.
Proof. exact relay_never_back. Qed.
Print Assumptions C06_relay_never_back.

(* 7. An update naming the node itself never changes its picture and is never relayed; one from
      the node's own current run (same epoch) changes nothing at all. *)
Theorem C06_self_origin_never_accepted : forall st u recv,
  u_origin u = ns_self st ->
  same_picture (fst (handle_update st u recv)) st /\ relay_obs (snd (handle_update st u recv)) = []
  /\ (u_epoch u = ns_epoch st -> handle_update st u recv = (st, [])).
Proof. exact self_origin_never_accepted. Qed.
Print Assumptions C06_self_origin_never_accepted.

(* 8. The duplicate-node notice is the one deliberate exception to (1): it rewrites the stored
      pair of its origin only when it names the stored epoch; it never touches the picture. *)
Theorem C06_notice_exception : forall st u recv o,
  u_susp u <> 0 ->
  let st' := fst (handle_update st u recv) in
  ns_known st' = ns_known st /\
  (info_of st' o <> info_of st o ->
   o = u_origin u /\ exists s, info_of st o = Some (u_susp u, s)
                    /\ info_of st' o = Some (u_epoch u, u_seq u)).
Proof. exact notice_only_rewrites_named_epoch. Qed.
Print Assumptions C06_notice_exception.

(* 9. Flooding terminates: in a mesh of such nodes where no new update is issued and no seen ID
      expires (Model/FloodWorld.v has no such steps), every execution — any delivery order, any loss —
      has at most [potential] steps and creates at most (sum over nodes of degree x unseen IDs) relay
      messages: at most sum-of-degrees per update. *)
Theorem C06_flooding_terminates : forall ids ls w w' n,
  flight_ids_in ids w -> wrun w ls = Some (w', n) ->
  (length ls <= potential ids w)%nat /\ (n <= nodes_weight ids (w_nodes w))%nat.
Proof.
  intros ids ls w w' n H1 H2. destruct (flooding_terminates ids ls w w' n H1 H2) as [A [B _]]. lia.
Qed.
Print Assumptions C06_flooding_terminates.

(* non-vacuity: a two-step history on a concrete node — a fresh update from origin 5 is recorded
   and relayed to the other connection only; its equal-sequence successor is ignored *)
Definition ex_st : nstate :=
  {| ns_self := 1; ns_epoch := 1000; ns_conns := [2; 3]; ns_info := []; ns_known := [];
     ns_seen := []; ns_down := false |}.
Definition ex_u (id : N) : upd :=
  {| u_origin := 5; u_id := id; u_epoch := 7; u_seq := 1; u_conns := Some [(2, 1)]; u_fwd := 2; u_susp := 0 |}.
Example C06_nonvacuous :
  relay_obs (snd (handle_update ex_st (ex_u 10) 2)) = [(3, 10, 1, 5)]
  /\ info_of (fst (handle_update ex_st (ex_u 10) 2)) 5 = Some (7, 1)
  /\ snd (handle_update (fst (handle_update ex_st (ex_u 10) 2)) (ex_u 11) 2) = [].
Proof. vm_compute. repeat split; reflexivity. Qed.

(* 10. The node's own row of the connection picture - its first-hand knowledge of its own links, on which
       routing (C01) relies - is never changed by a received update, whatever the update lists. *)
Theorem C06_own_row_untouched : forall st u recv,
  aget (ns_self st) (ns_known (fst (handle_update st u recv))) = aget (ns_self st) (ns_known st).
Proof. exact own_row_untouched. Qed.
Print Assumptions C06_own_row_untouched.

(* 11. Concurrent delivery.  Sessions handle their messages in parallel, so the same update can be in
       the hands of several threads at once.  With the duplicate filter as one atomic test-and-set
       (Model/FloodConc.v [step_atomic]), for every number of threads, every assignment of update IDs to
       them and every interleaving, each update ID gets through the filter - and hence is processed and
       relayed (theorems 1-9 describe one pass) - at most once; never if it had been seen before; exactly
       once when every thread has finished, it was new and some thread delivered it. *)
Theorem C06_concurrent_at_most_once : forall ids seen sched x,
  (passes x (snd (run_sched step_atomic seen (fresh_threads ids) sched)) <= 1)%nat.
Proof.
  intros ids seen sched x.
  destruct (run_sched_counted sched seen (fresh_threads ids)) as [_ H]. destruct (H x) as [_ ->].
  rewrite passes_fresh. destruct (mem_N x seen); [lia|]. destruct (mem_N x _); lia.
Qed.
Print Assumptions C06_concurrent_at_most_once.

Theorem C06_concurrent_seen_never_passes : forall ids seen sched x,
  mem_N x seen = true ->
  passes x (snd (run_sched step_atomic seen (fresh_threads ids) sched)) = 0%nat.
Proof. intros ids seen sched x M. now rewrite atomic_seen_never_passes, passes_fresh. Qed.
Print Assumptions C06_concurrent_seen_never_passes.

Theorem C06_concurrent_exactly_once : forall ids seen sched x,
  mem_N x seen = false -> In x ids ->
  all_done (snd (run_sched step_atomic seen (fresh_threads ids) sched)) = true ->
  passes x (snd (run_sched step_atomic seen (fresh_threads ids) sched)) = 1%nat.
Proof. exact atomic_exactly_once. Qed.
Print Assumptions C06_concurrent_exactly_once.

(* a filter that looks the ID up and inserts it in two separate critical sections is not enough: the
   interleaving check, check, insert, insert lets both threads through *)
Theorem C06_split_filter_refuted :
  passes 7 (snd (run_sched step_split [] (fresh_threads [7; 7]) [0; 1; 0; 1]%nat)) = 2%nat.
Proof. vm_compute. reflexivity. Qed.
Print Assumptions C06_split_filter_refuted.

Example C06_concurrent_nonvacuous :
  let r := run_sched step_atomic [] (fresh_threads [7; 7; 9]) [2; 0; 1; 0]%nat in
  all_done (snd r) = true /\ passes 7 (snd r) = 1%nat /\ passes 9 (snd r) = 1%nat /\ fst r = [7; 9].
Proof. vm_compute. repeat split; reflexivity. Qed.

(* 12. The newest wins in every order.  For every history of genuine ordinary updates with distinct fresh
       IDs - any order, any neighbours - the pair the node ends up recording for an origin covers every
       delivered update of that origin, and is the initial pair or a delivered one; for a new origin it is
       exactly the newest.  Concurrent deliveries of DIFFERENT updates of one origin are tied to this by
       the harness's linearizability check: [seq_check] holds iff what the real node recorded is what the
       model yields for SOME order of the batch. *)
Theorem C06_newest_wins_in_every_order : forall h st,
  Forall (fun x => genuine (ns_self st) (fst x)) h ->
  NoDup (map (fun x => u_id (fst x)) h) ->
  (forall x, In x h -> mem_N (u_id (fst x)) (ns_seen st) = false) ->
  forall x, In x h ->
    pair_le (Some (u_epoch (fst x), u_seq (fst x))) (info_of (fst (run st (recvs h))) (u_origin (fst x))) = true.
Proof. exact newest_wins. Qed.
Print Assumptions C06_newest_wins_in_every_order.

Theorem C06_final_pair_is_initial_or_delivered : forall h st o,
  Forall (fun x => u_susp (fst x) = 0) h ->
  info_of (fst (run st (recvs h))) o = info_of st o
  \/ exists x, In x h /\ u_origin (fst x) = o
               /\ info_of (fst (run st (recvs h))) o = Some (u_epoch (fst x), u_seq (fst x)).
Proof. exact final_pair_is_delivered. Qed.
Print Assumptions C06_final_pair_is_initial_or_delivered.

Theorem C06_new_origin_any_order : forall h st o,
  Forall (fun x => genuine (ns_self st) (fst x)) h ->
  NoDup (map (fun x => u_id (fst x)) h) ->
  (forall x, In x h -> mem_N (u_id (fst x)) (ns_seen st) = false) ->
  (forall x, In x h -> u_origin (fst x) = o) ->
  info_of st o = None -> h <> [] ->
  exists x, In x h /\ info_of (fst (run st (recvs h))) o = Some (u_epoch (fst x), u_seq (fst x))
            /\ forall y, In y h -> lex_le (u_epoch (fst y), u_seq (fst y)) (u_epoch (fst x), u_seq (fst x)) = true.
Proof. exact new_origin_any_order. Qed.
Print Assumptions C06_new_origin_any_order.

Theorem C06_linearizability_check_exact : forall c,
  seq_check c = true <-> exists p, Permutation (q_batch c) p /\ seq_explains c p = true.
Proof. intro c. apply existsb_perms. Qed.
Print Assumptions C06_linearizability_check_exact.

Example C06_any_order_nonvacuous :
  let a := ({| u_origin := 5; u_id := 10; u_epoch := 7; u_seq := 1; u_conns := Some [(2, 1)]; u_fwd := 2; u_susp := 0 |}, 2) in
  let b := ({| u_origin := 5; u_id := 11; u_epoch := 7; u_seq := 2; u_conns := Some [(3, 1)]; u_fwd := 3; u_susp := 0 |}, 3) in
  info_of (fst (run ex_st (recvs [a; b]))) 5 = Some (7, 2) /\ info_of (fst (run ex_st (recvs [b; a]))) 5 = Some (7, 2)
  /\ aget 5 (ns_known (fst (run ex_st (recvs [b; a])))) = Some [(3, 1)].
Proof. vm_compute. repeat split; reflexivity. Qed.

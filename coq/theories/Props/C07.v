(* Props/C07.v — property C07: no bytes from a backend peer can crash or wedge a node.
   Statements and their assumptions; a proof of a few lines over the lemmas of Proofs/ stands
   here, the others are behind [exact].  Model: Model/Proto.v
   (runProtocol's receive loop, both phases, with explicit Panic outcomes) over Model/PJson.v
   (encoding/json into the two wire structs); both mirror /repo after the "fix:" commits
   ddf5e1e (empty datagram, content-less advertisement) and e5a150d (ping answering itself),
   and are tied to the code by `./check C07`.  The "wedge" half of the property (a goroutine
   blocked for ever) is not a property of this sequential model: it is checked by the harness's
   runtime oracle only (barrier time-outs, a well-behaved peer's ping answered within 2 s). *)
From Coq Require Import String Lia.
From Receptor Require Import Model.Proto Proofs.PJson Proofs.Proto.
Open Scope N_scope.

(* For every tokenizer and hash oracle, every node state, every session state (not established
   or established, any backend policy) and every finite sequence of byte strings, the loop never
   reaches an unguarded index, a nil dereference or an unbounded recursion. *)
Theorem C07_never_panics : forall E st ds p, proto_run E st ds <> RPanic p.
Proof. intros E st ds p. apply proto_run_gen_never_panics. Qed.
Print Assumptions C07_never_panics.

Theorem C07_step_never_panics : forall E st d p, proto_step E st d <> Panic p.
Proof. exact proto_step_never_panics. Qed.
Print Assumptions C07_step_never_panics.

(* The pinned code is refuted by three one-datagram sequences: the empty datagram, an
   advertisement whose JSON names no ServiceAdvertisement field, and a ping packet from the
   node's own ping service to itself (found by the harness). *)
Theorem C07_pinned_refuted :
  (exists E st ds p, proto_run_pinned E st ds = RPanic p /\ ds = [[]]) /\
  (exists E st ds p, proto_run_pinned E st ds = RPanic p /\ ds = [2 :: str "{""Cancel"":true}"%string]) /\
  (exists E st ds p, proto_run_pinned E st ds = RPanic p /\ ds = [ping_loop_packet]).
Proof. exact pinned_refuted. Qed.
Print Assumptions C07_pinned_refuted.

(* Whatever one datagram contains, the connection entry and own-row cost edge of every remote
   ID other than the session's own are unchanged, and so are the node's ID, epoch and
   listeners. *)
Theorem C07_other_links_untouched : forall E n s d,
  match proto_step E (n, s) d with
  | Cont (n', s') _ => same_links_except (s_id s') n n'
  | Stop n' _ => same_links_except (s_id s) n n'
  | Panic _ => False
  end.
Proof. exact step_touches_only_own_link. Qed.
Print Assumptions C07_other_links_untouched.

(* Malformed input is ignored outright: the complete state (node and session) is unchanged. *)
Theorem C07_empty_datagram_ignored : forall E st, proto_step E st [] = Cont st [].
Proof. intros E st. now apply junk_ignored. Qed.
Print Assumptions C07_empty_datagram_ignored.

Theorem C07_unknown_type_ignored : forall E st ty body, 4 <= ty -> proto_step E st (ty :: body) = Cont st [].
Proof.
  intros E st ty body H. apply junk_ignored. cbn [junk]. now rewrite !(proj2 (N.eqb_neq ty _)) by lia.
Qed.
Print Assumptions C07_unknown_type_ignored.

Theorem C07_invalid_json_ignored : forall E st ty body,
  (ty = 1 \/ ty = 2) -> tok E body = None -> proto_step E st (ty :: body) = Cont st [].
Proof.
  intros E st ty body Ht Hj. apply junk_ignored. destruct Ht; subst ty; cbn; now rewrite Hj.
Qed.
Print Assumptions C07_invalid_json_ignored.

Theorem C07_undecodable_update_ignored : forall E st body j,
  tok E body = Some j -> decode_routing_update j = JErr -> proto_step E st (1 :: body) = Cont st [].
Proof. intros E st body j Hj Hd. apply junk_ignored. cbn. now rewrite Hj. Qed.
Print Assumptions C07_undecodable_update_ignored.

Theorem C07_undecodable_advert_ignored : forall E st body j,
  tok E body = Some j ->
  (decode_advert j = JErr \/ exists a, decode_advert j = JOk a /\ ad_present a = false) ->
  proto_step E st (2 :: body) = Cont st [].
Proof.
  intros E st body j Hj Hd. apply junk_ignored. cbn. rewrite Hj.
  destruct Hd as [->|(a & -> & Hp)]; [exact I|exact Hp].
Qed.
Print Assumptions C07_undecodable_advert_ignored.

Theorem C07_short_data_ignored : forall E st body,
  (List.length body < 35)%nat -> proto_step E st (0 :: body) = Cont st [].
Proof. intros E st body H. apply junk_ignored, decode_data_short. simpl. lia. Qed.
Print Assumptions C07_short_data_ignored.

Theorem C07_unknown_hash_ignored : forall E n s d,
  s_est s = true -> nth 0 d 1 = 0 ->
  (hget (n_hashes n) (be (slice d 4 12)) = None \/ hget (n_hashes n) (be (slice d 12 20)) = None) ->
  proto_step E (n, s) d = Cont (n, s) [].
Proof.
  intros E n s d _ H0 Hh. apply junk_ignored. destruct d as [|ty body]; [exact I|].
  cbn in H0. subst ty. now apply decode_data_unknown_hash.
Qed.
Print Assumptions C07_unknown_hash_ignored.

(* the embedded *ServiceAdvertisement is non-nil exactly when a member names one of its fields
   (whatever that member's value is, null included) *)
Theorem C07_advert_pointer_allocated_iff_field_named : forall j a, decode_advert j = JOk a ->
  ad_present a = match j with
                 | JObj ms => existsb (fun kv => names_embedded (fst kv)) ms
                 | _ => false
                 end.
Proof. exact decode_advert_present. Qed.
Print Assumptions C07_advert_pointer_allocated_iff_field_named.

(* "keeps running": a datagram after which the loop goes on with the node stopped, when it was
   running before, is the duplicate-node notice (a routing update naming the node itself,
   carrying the node's own epoch as SuspectedDuplicate) on an established session ... *)
Theorem C07_shutdown_only_by_duplicate_notice : forall E n s d,
  n_down n = false ->
  (exists n' s' evs, proto_step E (n, s) d = Cont (n', s') evs /\ n_down n' = true) ->
  s_est s = true /\ duplicate_notice E n d.
Proof.
  intros E n s d Hd (n' & s' & evs & Hs & Hd'). pose proof (down_only_by_notice E n s d) as X. rewrite Hs in X.
  destruct X as [X|X]; [congruence|exact X].
Qed.
Print Assumptions C07_shutdown_only_by_duplicate_notice.

(* ... so the full statement "the receiving process keeps running" is REFUTED by the faithful
   model: a forged notice stops the node (open finding C07-forged-duplicate-shutdown; the
   harness replays it on the real node) ... *)
Theorem C07_keeps_running_refuted :
  exists E n s d n' s' evs, s_est s = true /\ n_down n = false /\
    proto_step E (n, s) d = Cont (n', s') evs /\ n_down n' = true.
Proof. exact keeps_running_refuted. Qed.
Print Assumptions C07_keeps_running_refuted.

(* ... and what does hold: every finite sequence in which no routing update names the node itself
   with the node's own epoch as SuspectedDuplicate under another UpdateEpoch ([no_notice], a
   sufficient condition: it does not look at the session's phase) leaves a running node running,
   without panic. *)
Theorem C07_keeps_running_partial : forall E ds n s,
  n_down n = false -> no_notice E (n_id n) (n_epoch n) ds = true ->
  exists n', result_node (proto_run E (n, s) ds) = Some n' /\ n_down n' = false.
Proof. intros E ds n s. apply keeps_running_without_notice. Qed.
Print Assumptions C07_keeps_running_partial.

(* stream backends: the model's framing function, taken alone (no theorem runs the loop over a
   byte stream), returns exactly the announced bytes, taken from right behind the header, and
   leaves what follows them (length computed in N, no wrap-around); that pkg/framer's Go
   arithmetic agrees on all 65536 header values is checked exhaustively by the harness, not
   proved (see Model/Proto.v frame_pop) *)
Theorem C07_frame_pop_exact : forall b m rest, frame_pop b = Some (m, rest) ->
  exists lo hi, b = lo :: hi :: m ++ rest /\ List.length m = N.to_nat (lo + 256 * hi).
Proof. exact frame_pop_exact. Qed.
Print Assumptions C07_frame_pop_exact.

(* non-vacuity: the repaired loop really runs through the three historical witnesses and ignores
   them *)
Example C07_nonvacuous :
  proto_run ex_env (ex_node, ex_sess_est) [[]; 2 :: str "{""Cancel"":true}"%string; ping_loop_packet]
  = RCont (ex_node, ex_sess_est) [].
Proof. exact repaired_ignores_witnesses. Qed.

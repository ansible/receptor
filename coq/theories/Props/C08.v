(* Props/C08.v — property C08: no control-service input can crash or wedge a node; sessions are
   isolated.  Statements and their assumptions; a proof of a few lines over the lemmas of Proofs/ stands
   here, the others are behind [exact].
   Model: Model/CJson.v + Model/Ctl.v (RunControlSession, every InitFromString / InitFromJSON,
   reply class of every ControlFunc, findUnit -> scanForUnit with its lock steps, the reload
   section), mirroring the tree after its repairs (three are switches of [fixes]; the fourth, the
   reload mutex, is the [mutex] argument of [rl_run]); tied to the code by `./check C08`.
   Oracles, universally quantified: the JSON decoder, strings.ToLower, time.ParseDuration, the
   unit-ID generator.  [foreign_ok nd] only says that the description of the node under test is
   well formed (a "foreign path" is no plain directory name: it is empty, ".", "..", or contains a
   path separator). *)
From Coq Require Import String.
From Receptor Require Import Model.Ctl Proofs.Ctl.
Open Scope N_scope.

(* For every finite input byte sequence on a session — any bytes, any line lengths, unterminated
   last line with or without a half-close, JSON of any shape, any unit IDs —, in every node state:
   the session yields a sequence of replies; it never reaches a Panic point (the unchecked assertion
   of `status`; an unlock of a lock that is not held) and never blocks on the unit-index lock. *)
Theorem C08_ctl_total : forall parse lower ttl_ok fresh nd input eof,
  foreign_ok nd = true ->
  exists nd' rs, session parse lower ttl_ok fresh repaired nd input eof = SReplies nd' rs.
Proof. exact ctl_total. Qed.
Print Assumptions C08_ctl_total.

(* ... and the same for any sequence of request lines, each executed in the node the one before
   has left: that is every interleaving of the lines of any number of concurrent sessions (a
   line is executed atomically with respect to the unit index). *)
Theorem C08_ctl_total_interleaved : forall parse lower ttl_ok fresh ls nd,
  foreign_ok nd = true ->
  exists nd', run_schedule parse lower ttl_ok fresh repaired nd ls = Some nd'.
Proof.
  intros parse lower ttl_ok fresh ls nd _. apply lines_total.
Qed.
Print Assumptions C08_ctl_total_interleaved.

(* A non-empty request line that is not a valid command (unknown command word, undecodable JSON,
   missing or non-string `command`, an Init function that refuses its fields) is answered with a
   line starting with ERROR first, and leaves the node exactly as it was. *)
Theorem C08_ctl_error_reply : forall parse lower ttl_ok fresh nd line,
  line <> [] -> valid_line parse lower repaired line = false ->
  exists rs, exec_line parse lower ttl_ok fresh repaired nd line = LReplies nd (RErr :: rs).
Proof. exact ctl_error_reply. Qed.
Print Assumptions C08_ctl_error_reply.

(* Isolation: whatever a line does to the node, it does it as a valid `work` command; every other
   line — of this or any other session — leaves the node unchanged.  (Sessions have no state of
   their own besides the connection.) *)
Theorem C08_ctl_session_isolated : forall parse lower ttl_ok fresh nd line nd' rs,
  exec_line parse lower ttl_ok fresh repaired nd line = LReplies nd' rs -> nd' <> nd ->
  valid_line parse lower repaired line = true /\
  exists sub p, line_cmd parse lower line = Some (IOk (PWork sub p)).
Proof. exact ctl_session_isolated. Qed.
Print Assumptions C08_ctl_session_isolated.

(* a unit ID that names nothing — with or without path characters — is not found, and looking it
   up leaves the node as it was *)
Theorem C08_unknown_unit_no_effect : forall nd id,
  foreign_ok nd = true -> mem_b id (n_index nd) = false -> mem_b id (n_disk nd) = false ->
  find_unit repaired nd id = NotFound nd.
Proof.
  intros nd id Hf Hi Hd. unfold find_unit. rewrite Hi, find_ops_repaired_ok. simpl f_path.
  destruct (bad_unit_id id) eqn:Hb; simpl; [reflexivity|]. rewrite Hd.
  (* a foreign path would have a name that scanForUnit ignores *)
  destruct (assoc_b id (n_foreign nd)) as [nm|] eqn:Ea; [|reflexivity].
  apply (assoc_foreign_bad nd id nm Hf) in Ea. congruence.
Qed.
Print Assumptions C08_unknown_unit_no_effect.

(* the repaired findUnit leaves the lock free on every path *)
Theorem C08_lock_released : forall in_index dir_exists registers,
  lock_run lock_free (find_ops repaired in_index dir_exists registers) = LOk lock_free.
Proof. exact find_ops_repaired_ok. Qed.
Print Assumptions C08_lock_released.

(* concurrent reload commands: with the mutex a session that finds another one inside waits (in
   the model: its Enter does not happen), and no schedule is fatal *)
Theorem C08_reload_serialized : forall evs, exists k, rl_run true 0 evs = Some k.
Proof. intro evs. destruct (rl_mutex_le1 evs 0) as (k & H & _); eauto with arith. Qed.
Print Assumptions C08_reload_serialized.

(* index lock vs. a unit's status lock: `work list` / `work status` against `work release`, in
   every interleaving of their lock steps, both finish ([true] is answered only when every
   interleaving has run to its end; the fuel 20 exceeds the 12 steps two programs have) *)
Theorem C08_list_release_no_deadlock :
  lk_explore 20 (lk_init list_ops release_ops) = true /\
  lk_explore 20 (lk_init release_ops list_ops) = true /\
  lk_explore 20 (lk_init list_ops list_ops) = true /\
  lk_explore 20 (lk_init release_ops release_ops) = true.
Proof. vm_compute. repeat split. Qed.
Print Assumptions C08_list_release_no_deadlock.

(* a listing that reads unit status inside the index read section (the order opposite to
   Release's) has a deadlocking interleaving — why the phase `list-vs-release` of the harness
   exists.  ([false] is a deadlock here and not the fuel: Proofs.Ctl.nested_deadlock_witness has
   the interleaving.) *)
Theorem C08_list_release_nested_refuted : lk_explore 20 (lk_init list_ops_nested release_ops) = false.
Proof. exact list_release_nested_refuted. Qed.
Print Assumptions C08_list_release_nested_refuted.

(* non-vacuity: a well-formed node; a session with CR, empty lines, valid and invalid commands, a
   unit loaded from disk and an unterminated last line executed at the half-close *)
Example C08_nonvacuous :
  foreign_ok ex_node = true /\
  session ex_parse ex_lower (fun _ => true) (fun _ => []) repaired ex_node
          (str "ping n" ++ [13; 10; 10] ++ str "bogus" ++ [10] ++ str "{oops" ++ [10] ++ str "work status d1" ++ [10] ++ str "work list") true
  = SReplies (with_units ex_node [str "u1"; str "d1"] []) [ROk; RErr; RErr; RErr; ROk; ROk].
Proof. split; [reflexivity|vm_compute; reflexivity]. Qed.

(* the historical tree: each defect stays a checked fact (see known_findings.json) *)

(* status with requested_fields of non-list type: unchecked assertion *)
Theorem C08_pinned_status_refuted :
  exec_line ex_parse ex_lower (fun _ => true) (fun _ => []) pinned ex_node
            (str "{""command"":""status"",""requested_fields"":""NodeID""}") = LPanic P_REQUESTED_FIELDS.
Proof. exact pinned_status_refuted. Qed.
Print Assumptions C08_pinned_status_refuted.

(* a unit present only on disk: findUnit asks for the write lock under its own read lock *)
Theorem C08_pinned_lock_refuted :
  exec_line ex_parse ex_lower (fun _ => true) (fun _ => []) pinned ex_node (str "work status d1") = LDeadlock.
Proof. exact pinned_lock_refuted. Qed.
Print Assumptions C08_pinned_lock_refuted.

(* a unit ID leading out of the data directory: answered "unknown", yet indexed *)
Theorem C08_path_escape_refuted :
  exists nd', exec_line ex_parse ex_lower (fun _ => true) (fun _ => []) (mkfix true true false) ex_node
                        (str "work status ../o/f1") = LReplies nd' [RErr]
              /\ n_index nd' = [str "u1"; str "f1"].
Proof. exact path_escape_refuted. Qed.
Print Assumptions C08_path_escape_refuted.

(* two reload commands at once without a lock: concurrent map writes *)
Theorem C08_reload_pinned_refuted : rl_run false 0 [Enter; Enter] = None.
Proof. exact reload_pinned_refuted. Qed.
Print Assumptions C08_reload_pinned_refuted.

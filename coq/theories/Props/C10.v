(* Props/C10.v — property C10: the hop limit bounds forwarding; reach iff distance <= hops;
   expiry is reported.
   Statements and their assumptions; a proof of a few lines over the lemmas of Proofs/ stands
   here, the others are behind [exact].
   Model: Model/Forward.v (handleMessageData / forwardMessage / sendUnreachable / ping.go),
   structurally recursive on the hop budget over ARBITRARY routing tables, connection sets, name
   tables and listener sets; tied to the code by `./check C10`. *)
From Coq Require Import String Arith Lia.
From Receptor Require Import Model.Forward Model.TraceLoop Proofs.Forward Proofs.TraceLoop.
Open Scope N_scope.

(* whatever the tables say (loops, phantom routes, anything): a datagram handled with budget h
   is forwarded at most h times; it causes at most one unreachable notice; the notice is
   forwarded at most maxhops times: at most h + maxhops packets on the links in total *)
Theorem C10_hop_bound : forall w a m h,
  (count_forward (route_walk w a m h) <= h)%nat /\
  (length (notices w (route_walk w a m h)) <= 1)%nat /\
  (count_forward (walk w a m h) <= h + w_maxhops w)%nat.
Proof. exact hop_bound. Qed.
Print Assumptions C10_hop_bound.

(* a notice never generates a notice: all notices of a complete walk are those of the
   datagram itself, the notice's own walk adds none *)
Theorem C10_notice_never_generates_notice : forall w a m h,
  notices w (walk w a m h) = notices w (route_walk w a m h).
Proof.
  intros w a m h. destruct (route_walk_shape w m h a) as (fs & e & E & F & _).
  rewrite (walk_split w a m h fs e E F), notices_app.
  destruct (notice_walk_quiet w e) as (_ & -> & _). apply app_nil_r.
Qed.
Print Assumptions C10_notice_never_generates_notice.

(* if the current route (next-hop chain ns = source .. destination, each link connected, each
   receiver knowing the names) is d links long and the addressed service is bound: handed over
   iff d <= h, after exactly min(d,h) forwards; when h < d the walk ends with Expired at the
   h-th node of the route *)
Theorem C10_reach_iff : forall w m ns d h,
  chain_ok w m ns = true -> length ns = S d ->
  w_listen w (m_to m) (m_tsvc m) = true -> plain_svc (m_tsvc m) = true ->
  let t := route_walk w (hd [] ns) m h in
  delivered t = (d <=? h)%nat /\ count_forward t = Nat.min d h /\
  ((d <= h)%nat -> last t (EExpired [] m) = EDeliver (m_to m) (set_hops m (N.of_nat (h - d)))) /\
  ((h < d)%nat -> last t (EDeliver [] m) = EExpired (nth h ns []) (set_hops m 0)).
Proof. exact reach_iff. Qed.
Print Assumptions C10_reach_iff.

(* ... and that node tells the sender: if it has a route back of b <= maxhops links, the
   origin's unreachable service receives "message expired" naming the datagram, sent by it *)
Theorem C10_expiry_reported : forall w m ns d h bs b,
  chain_ok w m ns = true -> length ns = S d -> (h < d)%nat ->
  beq_bytes (m_fsvc m) svc_unreach = false ->
  let at_ := nth h ns [] in
  let nm := mk_notice w at_ P_EXPIRED (set_hops m 0) in
  chain_ok w nm bs = true -> hd [] bs = at_ -> length bs = S b -> (b <= w_maxhops w)%nat ->
  In (EUnreach (m_from m) (set_hops nm (N.of_nat (w_maxhops w - b)))) (walk w (hd [] ns) m h).
Proof. exact expiry_reported. Qed.
Print Assumptions C10_expiry_reported.

(* ping and traceroute: if the current route src = n0, n1, ..., nd = dst has d <= maxhops links,
   every node of it before dst has a route back to src within maxhops (for its notice) and so
   has dst (for its reply), then traceroute reports exactly n0, n1, ..., n(d-1) as "message
   expired" hops, in order, and ends with the reply of dst *)
Theorem C10_traceroute_lists_path : forall (w0 : world) (src dst eph : bytes),
  is_localhost src = false -> is_localhost dst = false -> plain_svc eph = true ->
  forall (ns : list node) (d : nat),
  chain_ok w0 (origin_msg src eph dst svc_ping [] 0) ns = true ->
  hd [] ns = src -> length ns = S d ->
  forall back : nat -> list node,
  (forall i : nat, (i < d)%nat ->
     chain_ok w0 (mk_notice (with_listener w0 src eph) (nth i ns []) P_EXPIRED
                    (set_hops (origin_msg src eph dst svc_ping [] i) 0)) (back i) = true /\
     hd [] (back i) = nth i ns [] /\ (length (back i) <= S (w_maxhops w0))%nat) ->
  forall rs : list node,
  chain_ok w0 (origin_msg dst svc_ping src eph [] (w_maxhops w0)) rs = true ->
  hd [] rs = dst -> (length rs <= S (w_maxhops w0))%nat ->
  (d <= w_maxhops w0)%nat ->
  traceroute w0 src dst eph = map (fun a => PErr a P_EXPIRED) (removelast ns) ++ [PReply dst].
Proof. exact traceroute_lists_path. Qed.
Print Assumptions C10_traceroute_lists_path.

(* A traceroute ends: in EVERY world — every set of routing tables, loops included, every hop limit
   — it makes at most one probe per budget 0..maxhops, and every result but the last is a
   "message expired" *)
Theorem C10_traceroute_ends : forall (w : world) (src target eph : bytes),
  (length (traceroute w src target eph) <= S (w_maxhops w))%nat /\
  forallb is_expired (removelast (traceroute w src target eph)) = true.
Proof.
  intros w src target eph. rewrite traceroute_is_trace_gen.
  split; [apply trace_gen_length|apply trace_gen_all_but_last_expired].
Qed.
Print Assumptions C10_traceroute_ends.

(* The same loop with its counter held in a byte (`hops <= max; hops++` on a byte) is the same
   function for every hop limit below 255 ... *)
Theorem C10_byte_counter_same_below_255 : forall (pingf : nat -> ping_res) (max : N),
  (max < 255)%N ->
  trace_byte pingf max 0 (S (S (N.to_nat max))) = (trace_gen pingf 0 (S (N.to_nat max)), true).
Proof.
  intros pingf max Hm. apply (trace_byte_same pingf max Hm (S (N.to_nat max)) 0). lia.
Qed.
Print Assumptions C10_byte_counter_same_below_255.

(* ... and with hop limit 255, when every probe expires (a forwarding loop), the real loop makes
   its 256 probes and ends, while the byte counter wraps to 0 and never ends, whatever the fuel *)
Theorem C10_byte_counter_traceroute_refuted : forall pingf : nat -> ping_res,
  (forall i, is_expired (pingf i) = true) ->
  (length (trace_gen pingf 0 256) = 256)%nat /\
  forall fuel, snd (trace_byte pingf 255 0 fuel) = false.
Proof. exact trace_byte_refuted. Qed.
Print Assumptions C10_byte_counter_traceroute_refuted.

Example C10_nonvacuous_trace_loop :
  (forall i, is_expired (always_expired i) = true) /\
  length (trace_gen always_expired 0 4) = 4%nat /\
  snd (trace_byte always_expired 3 0 6) = true /\
  snd (trace_byte always_expired 255 0 2000) = false.
Proof. exact trace_loop_example. Qed.

(* non-vacuity: a three-node chain a - b - c with converged tables; a sends to c:svc *)
Example C10_nonvacuous :
  let a := str "a"%string in let b := str "b"%string in let c := str "c"%string in
  let svc := str "svc"%string in
  let w := world_of {| d_routes := [(a, [(b, b); (c, b)]); (b, [(a, a); (c, c)]); (c, [(a, b); (b, b)])];
                       d_conns := [(a, [b]); (b, [a; c]); (c, [b])];
                       d_knows := [(a, [a; b; c]); (b, [a; b; c]); (c, [a; b; c])];
                       d_listen := [(c, [svc])]; d_maxhops := 30 |} in
  let m := origin_msg a (str "src"%string) c svc [1; 2; 3] 1 in
  chain_ok w m [a; b; c] = true /\ plain_svc svc = true /\ w_listen w c svc = true
  /\ chain_ok w (mk_notice w b P_EXPIRED (set_hops m 0)) [b; a] = true
  /\ delivered (route_walk w a m 2) = true /\ delivered (route_walk w a m 1) = false
  /\ count_forward (walk w a m 1) = 2%nat
  /\ traceroute w a c (str "ephemerl"%string) = [PErr a P_EXPIRED; PErr b P_EXPIRED; PReply c].
Proof. vm_compute. repeat split; reflexivity. Qed.

(* Props/C11.v — property C11: only admissible peers stay connected: allow-list, identity, cost,
   one per ID.  Statements and their assumptions; a proof of a few lines over the lemmas of Proofs/ stands
   here, the others are behind [exact].
   Model: Model/Admit.v — every session of a node as an automaton over the atomic steps that
   connLock / knownNodeLock define, interleaved in any order ([reachable] quantifies over all
   finite lists of labels: session starts, messages, bookkeeping steps, hang-ups, of any number
   of sessions) — over Model/Proto.v's admission test and decoders; mirrors /repo after the
   "fix:" commits 4decfd1 (empty node ID rejected) and 6afcbbe (connection removed on every exit
   after admission); tied to the code by `./check C11`. *)
From Coq Require Import String.
From Receptor Require Import Model.AdmitHeld Proofs.Admit Proofs.AdmitHeld.
Open Scope list_scope.
Open Scope N_scope.

(* In every reachable state, for every interleaving of any number of concurrent sessions, every
   entry (id, c) of s.connections: id is non-empty and not the local ID; exactly one live session
   occupies it; id is on the allow-list of that session's backend when it has one; c is that
   backend's cost for id (per-node override or default); and if the peer has declared a cost for
   the link it is c. *)
Theorem established_only_if_admissible : forall self y id c,
  reachable repaired self y -> aget (y_conns y) id = Some c ->
  id <> [] /\ id <> self /\
  exists i bi p, nth_error (y_sess y) i = Some (bi, p) /\ holds p = Some (id, c) /\
                 allowed bi id = true /\ c = cost_for bi id /\
                 (forall rc, p = PEst id c (Some rc) -> dy_eqb rc c = true) /\
                 (forall j bj pj cj, nth_error (y_sess y) j = Some (bj, pj) -> holds pj = Some (id, cj) -> j = i).
Proof. exact Proofs.Admit.established_only_if_admissible. Qed.
Print Assumptions established_only_if_admissible.

Theorem at_most_one_session_per_id : forall self y i j bi bj p q id c c',
  reachable repaired self y ->
  nth_error (y_sess y) i = Some (bi, p) -> nth_error (y_sess y) j = Some (bj, q) ->
  holds p = Some (id, c) -> holds q = Some (id, c') -> i = j.
Proof. exact Proofs.Admit.at_most_one_session_per_id. Qed.
Print Assumptions at_most_one_session_per_id.

(* the admission test, as a specification *)
Theorem admission_test_spec : forall self bi conns id,
  admissible repaired self bi conns id = true <->
  id <> [] /\ id <> self /\ allowed bi id = true /\ aget conns id = None.
Proof. exact admissible_spec. Qed.
Print Assumptions admission_test_spec.

(* a handshake that fails the test changes nothing but the fate of its own session: no entry,
   no own-row edge (hence no route), the other sessions untouched *)
Theorem rejected_leaves_no_route : forall y i bi ri,
  nth_error (y_sess y) i = Some (bi, PInit) ->
  admissible repaired (y_self y) bi (y_conns y) (ru_fwd ri) = false ->
  let y' := sys_step repaired y (LMsg i (ARoute ri)) in
  y_conns y' = y_conns y /\ y_selfrow y' = y_selfrow y /\
  nth_error (y_sess y') i = Some (bi, PClosed true) /\
  (forall j, j <> i -> nth_error (y_sess y') j = nth_error (y_sess y) j).
Proof. exact Proofs.Admit.rejected_leaves_no_route. Qed.
Print Assumptions rejected_leaves_no_route.

(* whenever no bookkeeping step is pending, every edge of the node's own cost row (the first hop
   of every route) is an established, live connection *)
Theorem no_route_without_connection : forall self y id,
  reachable repaired self y -> quiescent y = true -> amem (y_selfrow y) id = true ->
  exists c i bi decl, aget (y_conns y) id = Some c /\ nth_error (y_sess y) i = Some (bi, PEst id c decl).
Proof. exact Proofs.Admit.no_route_without_connection. Qed.
Print Assumptions no_route_without_connection.

(* a peer that speaks under another ID, stops listing the local node after having listed it, or
   declares a different cost is disconnected by that very message (reject sent), and its
   own-row edge is gone after the session's next step *)
Theorem misbehaving_peer_removed : forall self y i bi id c decl ri,
  reachable repaired self y ->
  nth_error (y_sess y) i = Some (bi, PEst id c decl) ->
  misbehaves (y_self y) id c decl ri ->
  let y1 := sys_step repaired y (LMsg i (ARoute ri)) in
  let y2 := sys_step repaired y1 (LFinish i) in
  aget (y_conns y1) id = None /\ nth_error (y_sess y1) i = Some (bi, PLeaving id true) /\
  aget (y_selfrow y2) id = None /\ nth_error (y_sess y2) i = Some (bi, PClosed true) /\ y_conns y2 = y_conns y1.
Proof. exact Proofs.Admit.misbehaving_peer_removed. Qed.
Print Assumptions misbehaving_peer_removed.

(* a connection is forgotten as soon as its session ends, in whatever phase after admission *)
Theorem forgotten_when_session_ends : forall self y i bi p id c,
  reachable repaired self y ->
  nth_error (y_sess y) i = Some (bi, p) -> holds p = Some (id, c) ->
  let y1 := sys_step repaired y (LHangup i) in
  let y2 := sys_step repaired y1 (LFinish i) in
  aget (y_conns y1) id = None /\ aget (y_conns y2) id = None /\ aget (y_selfrow y2) id = None /\
  nth_error (y_sess y2) i = Some (bi, PClosed false).
Proof. exact Proofs.Admit.forgotten_when_session_ends. Qed.
Print Assumptions forgotten_when_session_ends.

(* "session ended" is ONE event of the automaton whatever its cause (Recv io.EOF or error, Send
   error, backend context cancelled, idle monitor).  Every entry of s.connections is occupied by a
   session (the invariant); that such a session has not ended, and that an ended one occupies
   nothing, is how [holds] and [ended] are defined.  The ending step itself removes the entry
   (next theorem).  (That every cause really raises this event in the implementation, within a
   fraction of a second, is what the harness's session-endings phase checks.) *)
Theorem no_connection_of_an_ended_session : forall self y,
  reachable repaired self y ->
  (forall id c, aget (y_conns y) id = Some c ->
     exists i bi p, nth_error (y_sess y) i = Some (bi, p) /\ holds p = Some (id, c) /\ ended p = false) /\
  (forall i bi p, nth_error (y_sess y) i = Some (bi, p) -> ended p = true -> holds p = None).
Proof. exact Proofs.Admit.no_connection_of_an_ended_session. Qed.
Print Assumptions no_connection_of_an_ended_session.

Theorem ending_removes_in_one_step : forall self y i bi p id c,
  reachable repaired self y -> nth_error (y_sess y) i = Some (bi, p) -> holds p = Some (id, c) ->
  let y1 := sys_step repaired y (LHangup i) in
  aget (y_conns y1) id = None /\ exists q, nth_error (y_sess y1) i = Some (bi, q) /\ ended q = true.
Proof. exact Proofs.Admit.ending_removes_in_one_step. Qed.
Print Assumptions ending_removes_in_one_step.

(* the pinned code: a handshake without node ID is admitted as connection "" and can never be
   removed (DESIGN §9) ... *)
Theorem pinned_empty_id_refuted :
  let y := sys_run pinned (sys_init (str "victim"%string))
             [LStart bi1; LMsg 0 (ARoute no_id_update); LFinish 0; LFinish 0; LHangup 0; LFinish 0] in
  aget (y_conns y) [] = Some (Dy false 1 0) /\ aget (y_selfrow y) [] = Some (Dy false 1 0) /\
  nth_error (y_sess y) 0 = Some (bi1, PClosed false).
Proof. vm_compute. repeat split. Qed.
Print Assumptions pinned_empty_id_refuted.

(* ... and a session whose context ends while it waits for the routing-table runner is closed
   with its connection and route left behind (found while modelling; reproduced on the code) *)
Theorem pinned_forgotten_when_session_ends_refuted :
  let y := sys_run pinned (sys_init (str "victim"%string))
             [LStart bi1; LMsg 0 (ARoute alpha_update); LFinish 0; LHangup 0; LFinish 0] in
  aget (y_conns y) (str "alpha"%string) = Some (Dy false 1 0) /\
  aget (y_selfrow y) (str "alpha"%string) = Some (Dy false 1 0) /\
  nth_error (y_sess y) 0 = Some (bi1, PClosed false).
Proof. vm_compute. repeat split. Qed.
Print Assumptions pinned_forgotten_when_session_ends_refuted.

(* why at_most_one_session_per_id needs the admission test and the insertion to be ONE critical
   section: with the test under a read lock and the insertion under a later write lock, two
   sessions announcing the same ID at the same instant are both established, sharing one entry
   (the harness's gate-race phase looks for exactly this on the implementation) *)
Theorem split_check_and_insert_refuted :
  let id := str "twin"%string in
  let st := split_run (str "victim"%string) bi1 ([], [SInit; SInit]) [SCheck 0 id; SCheck 1 id; SInsert 0; SInsert 1] in
  snd st = [SHolding id (Dy false 1 0); SHolding id (Dy false 1 0)] /\ List.length (fst st) = 1%nat.
Proof. exact split_admission_refuted. Qed.
Print Assumptions split_check_and_insert_refuted.

(* the window between the END of a session and its loop noticing it (the loop is inside a message
   handler: firewall rule, slow local service): Model/AdmitHeld.v.  With the code's test (an ID
   that has an entry is taken, whatever the state of its owner), for every schedule of handshakes,
   ends and late clean-ups of any number of sessions, every session registered under an ID owns
   the entry of that ID — a registered session is always listed, and no two share an ID *)
Theorem held_end_holder_owns_entry : forall n ls i id a,
  let st := held_run false (held_init n) ls in
  nth_error (snd st) i = Some (HHolding id a) -> aget (fst st) id = Some i.
Proof. exact strict_holder_owns_entry. Qed.
Print Assumptions held_end_holder_owns_entry.

Theorem held_end_one_holder_per_id : forall n ls i j id a b,
  let st := held_run false (held_init n) ls in
  nth_error (snd st) i = Some (HHolding id a) -> nth_error (snd st) j = Some (HHolding id b) -> i = j.
Proof.
  intros n ls i j id a b st Hi Hj.
  pose proof (strict_holder_owns_entry n ls i id a Hi) as H1.
  pose proof (strict_holder_owns_entry n ls j id b Hj) as H2.
  fold st in H1, H2. congruence.
Qed.
Print Assumptions held_end_one_holder_per_id.

(* a test that does not count an entry whose owner's context has ended (removeConnection still
   deletes by ID): the old loop's clean-up deletes the reconnected session's entry — alive and not
   listed — and a third session is established next to it (the harness's held-end phase plays
   this schedule on the implementation) *)
Theorem held_end_lenient_test_refuted :
  let x := str "xray"%string in
  held_run true (held_init 3) [HHs 0 x; HEnd 0; HHs 1 x; HCleanup 0] = ([], [HGone; HHolding x true; HInit]) /\
  held_run true (held_init 3) [HHs 0 x; HEnd 0; HHs 1 x; HCleanup 0; HHs 2 x]
    = ([(x, 2%nat)], [HGone; HHolding x true; HHolding x true]).
Proof. exact lenient_test_refuted. Qed.
Print Assumptions held_end_lenient_test_refuted.

(* where the sequential model of one session (Model/Proto.v, tied to the code byte for byte by C07
   and C11 cases) and this automaton meet, in the two places that decide: a handshake on a fresh
   session is the admission step followed by the two bookkeeping steps, and est_check decides a
   routing update on an established session as step_route_est does *)
Theorem admission_refines_proto_step : forall E n s body j ri,
  s_est s = false -> tok E body = Some j -> decode_routing_update j = JOk ri ->
  let y' := sys_run repaired (sys_of n (s_bi s) PInit) [LMsg 0 (ARoute ri); LFinish 0; LFinish 0] in
  match proto_step E (n, s) (1 :: body) with
  | Cont (n', s') _ =>
    y_conns y' = n_conns n' /\ y_selfrow y' = n_selfrow n' /\
    y_sess y' = [(s_bi s, PEst (s_id s') (s_cost s') None)] /\ s_est s' = true /\ s_rest s' = false
  | Stop n' rej => y_conns y' = n_conns n' /\ y_selfrow y' = n_selfrow n' /\ y_sess y' = [(s_bi s, PClosed rej)]
  | Panic _ => False
  end.
Proof. exact Proofs.Admit.admission_refines_proto_step. Qed.
Print Assumptions admission_refines_proto_step.

Theorem est_check_refines_step_route_est : forall E n s ri decl,
  s_rest s = is_some decl ->
  match step_route_est E n s ri, est_check (n_id n) (s_id s) (s_cost s) decl ri with
  | Stop n' rej, None => n' = remove_conn n (s_id s) /\ rej = true
  | Cont (n', s') _, Some decl' =>
    n_conns n' = n_conns n /\ n_selfrow n' = n_selfrow n /\ s_id s' = s_id s /\ s_cost s' = s_cost s /\
    s_rest s' = is_some decl'
  | _, _ => False
  end.
Proof. exact Proofs.Admit.est_check_refines_step_route_est. Qed.
Print Assumptions est_check_refines_step_route_est.

(* two running nodes claim the same ID: the earlier one keeps running on everything the later
   one says about itself and answers with a notice naming the later epoch; on that notice the
   later one shuts down *)
Theorem earlier_duplicate_keeps_running : forall E n eb ri,
  n_id n <> [] -> 0 < n_epoch n -> n_epoch n < eb -> n_down n = false ->
  says_about_itself (n_id n) eb ri ->
  n_down (fst (handle_ru E n ri)) = false /\ snd (handle_ru E n ri) = [ENotify eb].
Proof. exact Proofs.Admit.earlier_duplicate_keeps_running. Qed.
Print Assumptions earlier_duplicate_keeps_running.

Theorem later_duplicate_shuts_down : forall E n ea ri,
  n_id n <> [] -> ea <> n_epoch n ->
  ru_node ri = n_id n -> ru_epoch ri = ea -> ru_dup ri = n_epoch n -> nonpositive_cost ri = false ->
  n_down (fst (handle_ru E n ri)) = true.
Proof. exact Proofs.Admit.later_duplicate_shuts_down. Qed.
Print Assumptions later_duplicate_shuts_down.

(* non-vacuity: a reachable, quiescent state with two live connections after a same-ID race *)
Example C11_nonvacuous :
  let y := sys_run repaired (sys_init (str "victim"%string))
             [LStart bi1; LStart bi1; LStart bi1;
              LMsg 1 (ARoute alpha_update); LMsg 0 (ARoute alpha_update);
              LMsg 2 (ARoute {| ru_node := []; ru_uid := []; ru_epoch := 0; ru_seq := 0; ru_conns := None;
                                ru_fwd := str "beta"%string; ru_dup := 0 |});
              LFinish 2; LFinish 1; LFinish 1; LFinish 2] in
  map fst (y_conns y) = [str "alpha"%string; str "beta"%string] /\ quiescent y = true /\
  nth_error (y_sess y) 0 = Some (bi1, PClosed true).
Proof. exact race_example. Qed.

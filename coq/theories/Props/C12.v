(* Props/C12.v — property C12: Firewall: the first matching rule decides at every node; bad
   rules are refused.
   Statements and their assumptions; a proof of a few lines over the lemmas of Proofs/ stands
   here, the others are behind [exact].
   Model: Model/Firewall.v + Model/Regex.v (mirror pkg/netceptor/firewall_rules.go and the rule loop
   of handleMessageData after the "fix:" commit), tied to the code by `./check C12`.

   Vocabulary (Model/Firewall.v):
     matches r p      every field the rule gives equals the packet's field (literal) or the packet's
                      field is in the language of the regular expression (/regex/; inductive [lang])
     decides rs p d   d = Some r: r is the first rule of rs that matches p;  d = None: none does
     verdict d        the action of that rule, Accept when there is none
     effective        what the result of the loop means for the packet (Continue = Accept)
     bad_rule gp raw  raw contains an unknown or non-string key, a non-string value, an unknown or
                      missing action, a malformed pattern (lone slash, unterminated, refused by
                      Go's regexp parser [gp]) or the same key in two spellings *)
From Coq Require Import String.
From Receptor Require Import Model.Firewall Proofs.Regex Proofs.Firewall.
Open Scope N_scope.

(* the executable matcher used by the model is the declarative language *)
Theorem C12_regex_full_match : forall r s, full r s = true <-> lang r s.
Proof. exact full_spec. Qed.
Print Assumptions C12_regex_full_match.

(* EVERY rule list and packet: some rule (or none) decides, and the loop of handleMessageData
   yields exactly the action of the first matching rule, Accept when no rule matches *)
Theorem C12_first_match_decides : forall rules p,
  (exists d, decides rules p d) /\
  (forall d, decides rules p d -> effective (eval rules p) = verdict d).
Proof. intros; split; [apply decides_total | apply eval_first_match]. Qed.
Print Assumptions C12_first_match_decides.

(* the same, by position: nothing before the rule matches, the rule matches, whatever follows *)
Theorem C12_first_match_by_position : forall pre r post p,
  Forall (fun x => ~ matches x p) pre -> matches r p ->
  effective (eval (pre ++ r :: post) p) = pr_action r.
Proof.
  intros pre r post p Hf Hm.
  apply (eval_first_match _ _ (Some r)). apply decides_first. eauto.
Qed.
Print Assumptions C12_first_match_by_position.

Theorem C12_no_match_accepts : forall rules p,
  Forall (fun x => ~ matches x p) rules -> effective (eval rules p) = Accept.
Proof. intros rules p H. apply (eval_first_match _ _ None). now apply decides_none. Qed.
Print Assumptions C12_no_match_accepts.

(* a field given as /re/ matches iff [full re value], a literal iff equal: each returned rule
   function answers its action exactly when all given fields match *)
Theorem C12_rule_function : forall r p,
  (matches r p <-> forallb (comp_match full p) (pr_comps r) = true) /\
  (matches r p -> rule_fn r p = result_of (pr_action r)) /\
  (~ matches r p -> rule_fn r p = FwContinue).
Proof.
  intros r p. split; [symmetry; apply rule_matchb_spec |].
  split; [apply rule_fn_match | apply rule_fn_nomatch].
Qed.
Print Assumptions C12_rule_function.

(* accepted / silently dropped / rejected with a notice to the source unless the packet is
   itself from service "unreach" *)
Theorem C12_disposition : forall rules p d,
  decides rules p d -> handle rules p = dictated (verdict d) p.
Proof. exact handle_dictated. Qed.
Print Assumptions C12_disposition.

(* at a node (origin, transit and destination run the same code): what leaves its firewall.  The
   notice is a packet the node originates, so the node's own rules apply to it as well. *)
Theorem C12_node : forall self rules p d,
  decides rules p d ->
  match verdict d with
  | Accept => node_handle self rules p = [(p, None)]
  | Drop => node_handle self rules p = []
  | Reject =>
    if beq_text (p_fromservice p) svc_unreach then node_handle self rules p = []
    else let u := mkU (p_fromnode p) (p_tonode p) (p_fromservice p) (p_toservice p) problem_rejected in
         forall d', decides rules (notice_pkt self u) d' ->
           node_handle self rules p =
           match verdict d' with Accept => [(notice_pkt self u, Some u)] | _ => [] end
  end.
Proof. exact node_firewall_spec_thm. Qed.
Print Assumptions C12_node.

(* along a path: delivered iff the first matching rule of every node on it accepts *)
Theorem C12_path : forall rest visited p,
  chain visited rest p = Delivered <->
  Forall (fun n => forall d, decides (snd n) p d -> verdict d = Accept) rest.
Proof.
  intros rest visited p. rewrite chain_delivered_passes, forallb_forall, Forall_forall.
  split; intros H n Hn; apply passes_spec, H, Hn.
Qed.
Print Assumptions C12_path.

(* rule installation (AddFirewallRules(rules, clearExisting)): after any history the rules in
   force are those of the last clearing call followed by everything appended since; without a
   clearing call everything is appended in order; replacing by the empty set accepts everything *)
Theorem C12_install_after_clear : forall (A : Type) (h1 : list (list A * bool)) cur new h2,
  install_all cur (h1 ++ (new, true) :: h2) = install_all new h2.
Proof. exact install_after_clear. Qed.
Print Assumptions C12_install_after_clear.

Theorem C12_install_appends : forall (A : Type) (h : list (list A * bool)) cur,
  forallb (fun x => negb (snd x)) h = true -> install_all cur h = cur ++ concat (map fst h).
Proof. exact install_appends. Qed.
Print Assumptions C12_install_appends.

Theorem C12_cleared_accepts_all : forall cur h1 self p,
  node_handle self (install_all cur (h1 ++ [([], true)])) p = [(p, None)].
Proof. intros. rewrite install_after_clear. reflexivity. Qed.
Print Assumptions C12_cleared_accepts_all.

(* handleMessageData to its end (delivery, ping reply, "service unknown", forwarding, expiry):
   every packet that leaves the node because of [p] — [p] itself, a ping reply, any notice the
   node originates — was accepted by the node's first matching rule *)
Theorem C12_originated_packets_filtered : forall self rules p listening hops q n,
  In (q, n) (node_full self rules p listening hops) -> passes rules q = true.
Proof. exact node_full_passes_thm. Qed.
Print Assumptions C12_originated_packets_filtered.

Theorem C12_node_full_plain : forall self rules p,
  beq_text (p_toservice p) svc_ping = false ->
  node_full self rules p true true = node_handle self rules p.
Proof. exact node_full_plain. Qed.
Print Assumptions C12_node_full_plain.

Theorem C12_ping_self : forall self eph rules,
  (ping_self self eph rules = PingReply <->
   passes rules (mkPkt self eph self svc_ping) = true /\ passes rules (mkPkt self svc_ping self eph) = true).
Proof. exact ping_self_spec. Qed.
Print Assumptions C12_ping_self.

(* a rule set containing anything uninterpretable is refused, whatever Go's regexp parser [gp]
   answers on the patterns; and parsing never panics *)
Theorem C12_bad_rules_refused : forall gp rules,
  existsb (bad_rule gp) rules = true -> exists e, parse_rules gp rules = PErr e.
Proof. exact bad_rules_refused_thm. Qed.
Print Assumptions C12_bad_rules_refused.

Theorem C12_parse_never_panics : forall gp rules, parse_rules gp rules <> PPanic.
Proof. intros gp rules H. pose proof (parse_rules_spec gp rules) as S. rewrite H in S. exact S. Qed.
Print Assumptions C12_parse_never_panics.

(* never in a wider form: an accepted set is accepted rule by rule, and each compiled rule is what
   [field_of] makes of the written fields (literal, /regex/ as parsed, or not given); that no field
   is lost to a pattern Go's parser refuses is [C12_bad_rules_refused] *)
Theorem C12_never_wider : forall gp rules rs,
  parse_rules gp rules = POk rs ->
  Forall2 (fun raw r => exists fr, fill raw = POk fr /\ action_of (f_action fr) = Some (pr_action r) /\
    pr_comps r = field_of gp FromNode (f_fromnode fr) ++ field_of gp ToNode (f_tonode fr)
                 ++ field_of gp FromService (f_fromservice fr) ++ field_of gp ToService (f_toservice fr))
    rules rs.
Proof. exact never_wider_thm. Qed.
Print Assumptions C12_never_wider.

(* non-vacuity: a three-rule set with a regular expression, in mixed key case, is accepted; a
   packet is decided by the second rule, rejected with the notice, and the notice leaves the node *)
Example C12_nonvacuous :
  existsb (bad_rule ex_gp) ex_raw = false /\ parse_rules ex_gp ex_raw = POk ex_rules /\
  decides ex_rules ex_pkt (Some (mkRule [(ToNode, MRe ex_re); (ToService, MLit (str "control"))] Reject)) /\
  handle ex_rules ex_pkt = DReject (Some (mkU (str "n1") (str "ab7b") (str "work") (str "control") problem_rejected)) /\
  node_handle (str "ab7b") ex_rules ex_pkt =
    [(mkPkt (str "ab7b") svc_unreach (str "n1") svc_unreach,
      Some (mkU (str "n1") (str "ab7b") (str "work") (str "control") problem_rejected))].
Proof. exact ex_nonvacuous. Qed.

(* the pinned tree (before the fix), kept as checked facts; see known_findings.json *)

(* "^a|b$": there are a parser answer, a rule set that both trees accept in the same compiled form,
   and a packet that no rule of it matches, which the pinned evaluation rejects and the repaired one
   accepts (the proof's witness: [reject fromnode=/a|b/] and a packet from "abc") *)
Theorem C12_pinned_anchoring_refuted :
  exists gp raw rules p,
    parse_rules_hist gp raw = POk rules /\ parse_rules gp raw = POk rules /\
    decides rules p None /\ effective (eval_hist rules p) = Reject /\ effective (eval rules p) = Accept.
Proof. exact hist_anchoring_refuted_thm. Qed.
Print Assumptions C12_pinned_anchoring_refuted.

(* pattern errors discarded: "/(/" and "/abc" were accepted as a rule that drops every packet *)
Theorem C12_pinned_widening_refuted :
  existsb (bad_rule gp_none) raw_badre = true /\ existsb (bad_rule gp_none) raw_unterminated = true /\
  parse_rules_hist gp_none raw_badre = POk [mkRule [] Drop] /\
  parse_rules_hist gp_none raw_unterminated = POk [mkRule [] Drop] /\
  (forall p, eval_hist [mkRule [] Drop] p = FwDrop).
Proof. exact hist_widening_refuted_thm. Qed.
Print Assumptions C12_pinned_widening_refuted.

(* a pattern consisting of one slash: slice bounds out of range *)
Theorem C12_pinned_lone_slash_panics : forall gp, parse_rules_hist gp raw_lone_slash = PPanic.
Proof. exact hist_lone_slash_panics_thm. Qed.
Print Assumptions C12_pinned_lone_slash_panics.

(* one key in two spellings: an unknown action overwritten by a known one was accepted *)
Theorem C12_pinned_dup_key_refuted :
  existsb (bad_rule gp_none) raw_dup = true /\ parse_rules_hist gp_none raw_dup = POk [mkRule [] Accept].
Proof. exact hist_dup_key_refuted_thm. Qed.
Print Assumptions C12_pinned_dup_key_refuted.

(* the repaired code refuses all four witnesses *)
Theorem C12_repaired_refuses_witnesses :
  (exists e, parse_rules gp_none raw_badre = PErr e) /\ (exists e, parse_rules gp_none raw_unterminated = PErr e) /\
  (exists e, parse_rules gp_none raw_lone_slash = PErr e) /\ (exists e, parse_rules gp_none raw_dup = PErr e).
Proof. exact repaired_refuses_witnesses. Qed.
Print Assumptions C12_repaired_refuses_witnesses.

(* Props/C13.v — property C13: work units only move forward; release removes them; unit IDs are
   unique.  Statements and their assumptions; a proof of a few lines over the lemmas of Proofs/ stands
   here, the others are behind [exact].
   Model: Model/WorkLife.v — the writers of one command unit's status record (submit path, runner
   process, waiter goroutine, Cancel, Release, restart) as interleaved programs whose writes are
   C14-atomic read-modify-writes, and AllocateUnit/generateUnitID; it mirrors /repo AFTER commit
   1beb8d4 (Cancel keeps a Succeeded record); the pinned Cancel is [run true].  Tied to the code by
   `./check C13`: every status rewrite of daemon and runner (VERIF_STATUS_LOG) is judged by
   [log_ok] in coqc, the same checker the theorems below are about. *)
From Receptor Require Import Model.WorkLife Proofs.WorkLife.
Open Scope N_scope.

(* Every status log the model can produce — EVERY interleaving of the submit path, the runner,
   the waiter, any number of concurrent cancels/releases/force-releases and the environment,
   without daemon restart — is a chain of the writers' writes, each an allowed transition. *)
Theorem C13_model_logs_are_accepted : forall sched, no_restart sched = true ->
  log_ok false (w_log (run false sched world0)) = true /\
  last_rec h0 (w_log (run false sched world0)) = w_file (run false sched world0).
Proof. exact model_log_ok. Qed.
Print Assumptions C13_model_logs_are_accepted.

(* What the checker's verdict means for ANY log it accepts (model's or implementation's): in the
   history of the stored record, a later record is never in an earlier stage, a Succeeded record
   stays Succeeded with the same size, the size never shrinks while pending/running. *)
Theorem C13_accepted_logs_move_forward : forall pinned log, log_ok pinned log = true ->
  forall i j ri rj, (i <= j)%nat ->
  nth_error (history h0 log) i = Some ri -> nth_error (history h0 log) j = Some rj ->
  stage (st ri) <= stage (st rj) /\
  (st ri = Succeeded -> st rj = Succeeded /\ sz rj = sz ri) /\
  (stage (st rj) <= 1 -> sz ri <= sz rj).
Proof. exact log_ok_history. Qed.
Print Assumptions C13_accepted_logs_move_forward.

Theorem C13_stage_monotone : forall sched, no_restart sched = true ->
  let h := history h0 (w_log (run false sched world0)) in
  forall i j ri rj, (i <= j)%nat -> nth_error h i = Some ri -> nth_error h j = Some rj ->
  stage (st ri) <= stage (st rj).
Proof. exact stage_monotone. Qed.
Print Assumptions C13_stage_monotone.

Theorem C13_succeeded_absorbing : forall sched, no_restart sched = true ->
  let h := history h0 (w_log (run false sched world0)) in
  forall i j ri rj, (i <= j)%nat -> nth_error h i = Some ri -> nth_error h j = Some rj ->
  st ri = Succeeded -> st rj = Succeeded /\ sz rj = sz ri.
Proof. exact succeeded_absorbing. Qed.
Print Assumptions C13_succeeded_absorbing.

Theorem C13_size_monotone_while_running : forall sched, no_restart sched = true ->
  let h := history h0 (w_log (run false sched world0)) in
  forall i j ri rj, (i <= j)%nat -> nth_error h i = Some ri -> nth_error h j = Some rj ->
  stage (st rj) <= 1 -> sz ri <= sz rj.
Proof. exact size_monotone_while_running. Qed.
Print Assumptions C13_size_monotone_while_running.

(* a release / force-release that has run to its end has removed the directory and the index
   entry — every schedule, restarts included, fixed and pinned Cancel alike — and nothing brings
   them back, nor is its record ever written again *)
Theorem C13_release_removes : forall pinned sched i c,
  nth_error (w_cancels (run pinned sched world0)) i = Some c ->
  k_kind c <> 0 -> k_pc c = CEnd ->
  w_dir (run pinned sched world0) = false /\ w_indexed (run pinned sched world0) = false.
Proof. exact release_removes. Qed.
Print Assumptions C13_release_removes.

Theorem C13_released_stays_released : forall pinned sched w,
  w_dir w = false -> w_indexed w = false ->
  w_dir (run pinned sched w) = false /\ w_indexed (run pinned sched w) = false /\
  w_file (run pinned sched w) = w_file w.
Proof.
  intros p sched w Hd Hx.
  exact (run_preserves p _ sched (fun a s _ => released_step p a s (w_file w)) w (conj Hd (conj Hx eq_refl))).
Qed.
Print Assumptions C13_released_stays_released.

(* "cancelling stops the unit's process": the runner never exits while its command lives - it sends
   SIGINT and, when the command is still there after the grace period (it may ignore SIGINT),
   SIGKILL - for every schedule, restarts included ... *)
Theorem C13_runner_gone_command_gone : forall pinned sched,
  gone (w_run (run pinned sched world0)) = true -> w_child (run pinned sched world0) <> CRun.
Proof. intros p sched Hg. apply no_child; [apply child_run|now apply gone_not_alive]. Qed.
Print Assumptions C13_runner_gone_command_gone.

(* ... and a Cancel (no daemon restart) that has come to its write finds the runner gone: from then
   on neither the runner nor the command is alive, whatever happens next.  *)
Theorem C13_cancel_stops_process : forall sched i c, no_restart sched = true ->
  nth_error (w_cancels (run false sched world0)) i = Some c -> k_pc c = CWrite ->
  forall sched', let w' := run false sched' (run false sched world0) in
  gone (w_run w') = true /\ w_child w' <> CRun.
Proof.
  intros sched i c Hn Hi Hpc sched' w'.
  pose proof (run_canc_ok sched i c Hn Hi) as Hc. unfold canc_ok in Hc. rewrite Hpc in Hc.
  destruct (gone_run false sched' _ (conj (child_run false sched) Hc)) as (Hk & Hg).
  split; [exact Hg|]. apply no_child; [exact Hk|now apply gone_not_alive].
Qed.
Print Assumptions C13_cancel_stops_process.

(* ... and, with the launch done under a lock that Cancel takes (/repo a6deca5), EVERY Cancel or
   Release that has done its part leaves the unit without a runner as long as the daemon is not
   restarted: either none was launched and none will be, or it is gone, and the command with it.  (Before that fix a cancel
   that arrived before the runner's pid was recorded was a no-op and the unit ran on.) *)
Theorem C13_cancel_always_stops_process : forall sched i c, no_restart sched = true ->
  nth_error (w_cancels (run false sched world0)) i = Some c ->
  (k_pc c = CRmDir \/ k_pc c = CDelIdx \/ k_pc c = CEnd) ->
  forall sched', no_restart sched' = true ->
  let w' := run false sched' (run false sched world0) in
  (w_run w' = RNone \/ gone (w_run w') = true) /\ w_child w' <> CRun.
Proof. exact cancel_always_stops_process. Qed.
Print Assumptions C13_cancel_always_stops_process.

(* a remote unit that is cancelled or released before its work was started on the remote node is
   never submitted afterwards (Cancel stops the submitting job and waits for it), whatever happens
   later; a Cancel that leaves the job alone is refuted *)
Theorem C13_remote_cancel_stops_job : forall a before after,
  a = RmCancel \/ a = RmRelease ->
  r_started (rem_run true before rem0) = false ->
  let r := rem_run true after (rem_step true a (rem_run true before rem0)) in
  r_started r = false /\ r_job r = false.
Proof.
  intros a before after Ha Hs r. exact (proj2 (rem_cancelled_run after _ (rem_cancel_step a _ Ha Hs))).
Qed.
Print Assumptions C13_remote_cancel_stops_job.

Theorem C13_remote_cancel_without_stopping_refuted :
  let r := rem_run false [RmCancel; RmReach true; RmTry] rem0 in
  r_cancelled r = true /\ r_state r = Failed /\ r_started r = true.
Proof. exact remote_cancel_without_stopping_refuted. Qed.
Print Assumptions C13_remote_cancel_without_stopping_refuted.

(* unit IDs: for every candidate stream and every interleaving of allocations (also those that
   fail after creating the directory) and releases, the index never holds an ID twice, and an ID
   handed out was neither in the index nor a directory on disk *)
Theorem C13_ids_unique : forall fuel cands acts s,
  nodup_ids (i_index s) = true -> nodup_ids (i_index (id_run true fuel cands acts s)) = true.
Proof. exact ids_unique. Qed.
Print Assumptions C13_ids_unique.

Theorem C13_alloc_returns_fresh_id : forall fuel cands s fails x,
  i_given (id_step true fuel cands (IAlloc fails) s) = x :: i_given s ->
  mem x (i_index s) = false /\ mem x (i_disk s) = false.
Proof.
  intros fuel cands s fails x H. destruct (alloc_given _ _ _ _ _ _ H) as (pos' & G).
  exact (gen_id_fresh _ _ _ _ _ _ _ G).
Qed.
Print Assumptions C13_alloc_returns_fresh_id.

(* the pinned Cancel (before 1beb8d4): a cancel racing with a finishing runner replaces Succeeded
   by Canceled, without any restart; kept as a checked fact, see known_findings.json *)
Theorem C13_pinned_cancel_refuted :
  no_restart cancel_race_sched = true /\
  let h := history h0 (w_log (run true cancel_race_sched world0)) in
  nth_error h 6 = Some (mkRec Succeeded 4) /\ nth_error h 7 = Some (mkRec Canceled 4) /\
  log_ok true (w_log (run true cancel_race_sched world0)) = false.
Proof. exact succeeded_absorbing_pinned_refuted. Qed.
Print Assumptions C13_pinned_cancel_refuted.

(* OPEN FINDING: with a daemon restart the stage does go back — Cancel does not wait for a runner
   that is not its child (Canceled, then the runner's tick: Running), and "Pending at restart"
   fails a unit whose runner is alive (Failed, then Running).  C13_stage_monotone above is
   therefore the partial statement "no restart in the history". *)
Theorem C13_stage_monotone_with_restart_refuted :
  (let h := history h0 (w_log (run false restart_cancel_sched world0)) in
   nth_error h 7 = Some (mkRec Canceled 2) /\ nth_error h 8 = Some (mkRec Running 2)) /\
  (let h := history h0 (w_log (run false restart_pending_sched world0)) in
   nth_error h 6 = Some (mkRec Failed 0) /\ nth_error h 7 = Some (mkRec Running 2)) /\
  stage Running < stage Canceled /\ stage Running < stage Failed.
Proof. exact stage_monotone_restart_refuted. Qed.
Print Assumptions C13_stage_monotone_with_restart_refuted.

(* the mutation "generateUnitID does not look at the disk" hands out the directory of a failed
   allocation; with the check the same stream hands out nothing *)
Theorem C13_ids_without_disk_check_refuted :
  let cands := fun _ : nat => 7 in
  let s1 := id_step false 3 cands (IAlloc true) (mkIds [] [] 0 []) in
  let s2 := id_step false 3 cands (IAlloc false) s1 in
  mem 7 (i_disk s1) = true /\ i_given s2 = [7] /\
  i_given (id_step true 3 cands (IAlloc false) (id_step true 3 cands (IAlloc true) (mkIds [] [] 0 []))) = [].
Proof. exact ids_without_disk_check_refuted. Qed.
Print Assumptions C13_ids_without_disk_check_refuted.

(* non-vacuity: the schedule of the pinned refutation is restart-free, and on the repaired Cancel
   it keeps Succeeded *)
Example C13_nonvacuous :
  let h := history h0 (w_log (run false cancel_race_sched world0)) in
  nth_error h 6 = Some (mkRec Succeeded 4) /\ nth_error h 7 = Some (mkRec Succeeded 4).
Proof. exact cancel_race_fixed. Qed.

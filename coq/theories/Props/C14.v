(* Props/C14.v — property C14: status records are updated atomically with respect to every other
   reader and writer.
   Statements and their assumptions; a proof of a few lines over the lemmas of Proofs/ stands
   here, the others are behind [exact].
   Model: Model/Lock.v (the step sequence of StatusFileData.UpdateFullStatus / Load / Save of
   pkg/workceptor/workunitbase.go, N goroutines x M processes as one list of model processes,
   every schedule), tied to the code by `./check C14` (strace projection + stress). *)
From Receptor Require Import Model.Lock Proofs.Lock Model.LockMem Proofs.LockMem.
Open Scope N_scope.

(* For EVERY schedule: whenever the lock is free, the file, every process' in-memory record and
   the log of what every Read returned are exactly those of executing the same operations ONE
   AT A TIME in lock-acquisition order (linearizability; the file may be absent at the start). *)
Theorem C14_linearizable : forall (R : Type) (file0 : fcontent R) (progs : list (list (op R) * R)) sched,
  let c := run true sched (init file0 progs) in
  let a := atomic_run (a_init file0 progs) (c_order c) in
  c_lock c = None ->
  c_file c = a_file a /\ map p_mem (c_procs c) = a_mems a /\ c_reads c = a_reads a.
Proof. exact linearizable. Qed.
Print Assumptions C14_linearizable.

(* ... so, when no Save (which replaces the record by the saver's in-memory one) is among them,
   the stored record is the fold of ALL update functions in that order over the record stored
   before: no update is lost, each is applied to the latest stored record *)
Theorem C14_updates_linearizable : forall (R : Type) (r0 : R) (progs : list (list (op R) * R)) sched,
  let c := run true sched (init (FRec r0) progs) in
  c_lock c = None -> no_saves (c_order c) = true ->
  c_file c = FRec (apply_all (upd_fns (c_order c)) r0).
Proof. exact updates_linearizable. Qed.
Print Assumptions C14_updates_linearizable.

(* ... and when all programs have finished, that order contains every operation of every process
   exactly once, in program order (holds with or without the lock) *)
Theorem C14_no_update_lost : forall (R : Type) locking (file0 : fcontent R) (progs : list (list (op R) * R)) sched,
  let c := run locking sched (init file0 progs) in
  all_done c = true ->
  forall q pm, nth_error progs q = Some pm -> ops_of q (c_order c) = fst pm.
Proof. exact no_update_lost. Qed.
Print Assumptions C14_no_update_lost.

(* a reader never sees a partially written record: at EVERY point of EVERY schedule of programs of
   updates, loads AND saves, everything any Read step (of a Load or of an update) has returned is
   a whole record, the one stored after a prefix of the order — never the empty file between
   Truncate/OpenTrunc and Write *)
Theorem C14_loads_see_whole_records : forall (R : Type) (r0 : R) (progs : list (list (op R) * R)) sched,
  let c := run true sched (init (FRec r0) progs) in
  forall pv, In pv (c_reads c) ->
  exists n r, (n <= length (c_order c))%nat /\ snd pv = FRec r /\
              a_file (atomic_run (a_init (FRec r0) progs) (firstn n (c_order c))) = FRec r.
Proof. exact loads_see_whole_records. Qed.
Print Assumptions C14_loads_see_whole_records.

(* ... without Saves: the fold of the update functions of that prefix *)
Theorem C14_loads_see_fold_of_prefix : forall (R : Type) (r0 : R) (progs : list (list (op R) * R)) sched,
  let c := run true sched (init (FRec r0) progs) in
  no_saves (c_order c) = true ->
  forall pv, In pv (c_reads c) ->
  exists n, (n <= length (c_order c))%nat /\
            snd pv = FRec (apply_all (upd_fns (firstn n (c_order c))) r0).
Proof.
  intros R r0 progs sched c Hns pv Hin.
  destruct (reads_are_prefix_states R (FRec r0) progs sched pv Hin) as (n & Hn & E).
  exists n. split; [assumption|]. fold c in E. rewrite E. now apply prefix_file_fold.
Qed.
Print Assumptions C14_loads_see_fold_of_prefix.

(* the same without assuming that a record exists at the start (first update of a fresh file) *)
Theorem C14_reads_are_prefix_states : forall (R : Type) (file0 : fcontent R) (progs : list (list (op R) * R)) sched,
  let c := run true sched (init file0 progs) in
  forall pv, In pv (c_reads c) ->
  exists n, (n <= length (c_order c))%nat /\
            snd pv = a_file (atomic_run (a_init file0 progs) (firstn n (c_order c))).
Proof. exact reads_are_prefix_states. Qed.
Print Assumptions C14_reads_are_prefix_states.

(* fields owned by one writer are not wiped by another, on the counters the stress harness uses:
   for every schedule, when all programs are done the own counter of every writer is the number
   of ITS updates and the shared counter their total *)
Theorem C14_counters_exact : forall (progs : list (list kop)) sched,
  let nw := length progs in
  let c := run true sched (init (FRec (crec0 nw)) (kprogs nw progs)) in
  no_ksave progs = true -> all_done c = true -> c_lock c = None ->
  exists r, c_file c = FRec r /\
            snd r = map (fun ks => N.of_nat (count_incr ks)) progs /\
            fst r = nsum (snd r).
Proof. exact counters_exact. Qed.
Print Assumptions C14_counters_exact.

(* what breaks it — the same steps without lockStatusFile (mutation "drop the lock"): a schedule
   in which both writers finish and one update is lost (the result is the fold of NO order) *)
Theorem C14_without_lock_refuted :
  let c := run false lost_sched (init (FRec (0, 0)) two_writers) in
  all_done c = true /\ c_file c = FRec (0, 1) /\
  c_file c <> FRec (apply_all (upd_fns (c_order c)) (0, 0)) /\
  apply_all [inc_fst; inc_snd] (0, 0) = (1, 1) /\ apply_all [inc_snd; inc_fst] (0, 0) = (1, 1).
Proof. vm_compute. repeat split; congruence. Qed.
Print Assumptions C14_without_lock_refuted.

(* ... and a reader that finds the file empty although a record was stored all the time *)
Theorem C14_without_lock_torn_read_refuted :
  let c := run false torn_sched (init (FRec (0, 0)) writer_and_reader) in
  In (1%nat, FEmpty) (c_reads c).
Proof. vm_compute. auto. Qed.
Print Assumptions C14_without_lock_torn_read_refuted.

(* ... and Save with its truncating open BEFORE the lock (seeded mutation): a reader holding the
   lock finds the file empty *)
Theorem C14_save_truncating_before_lock_refuted :
  let c := run_early early_trunc_sched (init (FRec (0, 0)) saver_and_reader) in
  In (1%nat, FEmpty) (c_reads c) /\ all_done c = true /\ c_file c = FRec (5, 5).
Proof. exact save_truncating_before_lock_refuted. Qed.
Print Assumptions C14_save_truncating_before_lock_refuted.

(* ... and saveStdoutSize done as Load ; Save (two critical sections; seeded mutation) instead of the
   one locked read-modify-write of the code: the update between them is lost *)
Theorem C14_load_then_save_refuted :
  let c := run true loadsave_sched (init (FRec (0, 0)) loadsave_and_writer) in
  all_done c = true /\ c_lock c = None /\
  upd_fns (c_order c) = [inc_fst] /\ c_file c = FRec (0, 0) /\
  apply_all (upd_fns (c_order c)) (0, 0) = (1, 0).
Proof. exact load_then_save_refuted. Qed.
Print Assumptions C14_load_then_save_refuted.

(* an update is a function of the STORED record, read under the lock - never of the writer's cached
   copy: the stored record after any schedule is the same whatever the writers had cached *)
Theorem C14_update_independent_of_cache : forall (R : Type) (r0 : R) (progs1 progs2 : list (list (op R) * R)) sched,
  map fst progs1 = map fst progs2 ->
  let c1 := run true sched (init (FRec r0) progs1) in
  let c2 := run true sched (init (FRec r0) progs2) in
  c_lock c1 = None -> no_saves (c_order c1) = true ->
  c_file c1 = c_file c2.
Proof. exact update_independent_of_cache. Qed.
Print Assumptions C14_update_independent_of_cache.

(* ... and the shortcut "my cached record already has these values, skip the update" (seeded
   mutation) drops an update while reporting success: set 1, other writer sets 2, set 1 again *)
Theorem C14_cached_shortcut_refuted :
  let c := run_cached same_nn repeat_sched (init (FRec (0, 0)) repeat_writers) in
  let c' := run true repeat_sched (init (FRec (0, 0)) repeat_writers) in
  all_done c = true /\ c_file c = FRec (2, 0) /\
  all_done c' = true /\ c_file c' = FRec (1, 0).
Proof. exact cached_shortcut_refuted. Qed.
Print Assumptions C14_cached_shortcut_refuted.

(* the daemon's launch step "record the runner's pid" (command.go runCommand) must therefore be an
   update of the STORED record.  Recording it by Save of the daemon's in-memory copy (seeded
   mutation) is exactly the refuted composition above: the copy was read before the runner wrote
   (OLoad), the runner updates the record (OUpd), the Save puts the stale copy back - the very
   witness of C14_load_then_save_refuted, restated here under its own name *)
Theorem C14_pid_recorded_by_save_refuted :
  let c := run true loadsave_sched (init (FRec (0, 0)) loadsave_and_writer) in
  all_done c = true /\ c_lock c = None /\
  upd_fns (c_order c) = [inc_fst] /\ c_file c = FRec (0, 0) /\
  apply_all (upd_fns (c_order c)) (0, 0) = (1, 0).
Proof. exact load_then_save_refuted. Qed.
Print Assumptions C14_pid_recorded_by_save_refuted.

(* the record the daemon REPORTS: the in-memory copy of the long-lived unit object (Model/LockMem.v,
   one event per file-lock section, which C14_linearizable justifies).  With statusLock held around
   the file-lock section (UpdateFullStatus / UpdateBasicStatus / Load of BaseWorkUnit), for every
   trace of updates and Loads of the object and of writes by others (the runner): no update made
   through the object is missing from the in-memory record or from the file, and the in-memory
   record is a record the file held *)
Theorem C14_object_keeps_updates : forall tr r u,
  forallb nested tr = true -> In (EUpd u) tr ->
  let s := mrun tr (minit r) in
  In u (m_mem s) /\ In u (m_file s) /\ is_prefix (m_mem s) (m_file s).
Proof.
  intros tr r u Hn Hin. destruct (mrun_nested tr r Hn) as [P I].
  split; [|split]; eauto using prefix_in.
Qed.
Print Assumptions C14_object_keeps_updates.

(* ... and it IS the stored record whenever the last event went through the object *)
Theorem C14_object_publishes_the_file : forall tr r,
  forallb nested tr = true -> last_through_object tr = true ->
  let s := mrun tr (minit r) in m_mem s = m_file s.
Proof. exact nested_publishes_the_file. Qed.
Print Assumptions C14_object_publishes_the_file.

(* a Load that reads the file without statusLock and assigns the copy afterwards (seeded change
   C14-H): read, an update of the same object runs to its end, publish - the update that returned
   is in the file and missing from the in-memory record *)
Theorem C14_split_load_refuted :
  let s := mrun split_witness (minit []) in
  m_file s = [1%nat] /\ m_mem s = [] /\ ~ In 1%nat (m_mem s) /\ In (EUpd 1) split_witness.
Proof. exact split_load_refuted. Qed.
Print Assumptions C14_split_load_refuted.

(* non-vacuity: with the lock, the schedule of the refutation (completed) loses nothing *)
Example C14_nonvacuous :
  let c := run true (lost_sched ++ [1; 1; 1; 1; 1; 1; 1]%nat) (init (FRec (0, 0)) two_writers) in
  all_done c = true /\ c_file c = FRec (1, 1).
Proof. exact locked_same_schedule. Qed.

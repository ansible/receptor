(* Props/C15.v — property C15: signature-protected work cannot be driven remotely without a
   valid token.  Statements and their assumptions; a proof of a few lines over the lemmas of Proofs/ stands
   here, the others are behind [exact].
   Model: Model/Sig.v (processSignature ∘ ShouldVerifySignature ∘ VerifySignature and the effects
   of the `work` command interpreter), tied to the code by `./check C15`.
   [jwt] is the JWT library as an oracle on non-empty token strings; the theorems hold for every
   oracle and for nodes with and without a configured verification key. *)
From Coq Require Import ZArith.
From Receptor Require Import Model.Sig Proofs.Sig.
Open Scope N_scope.

(* For every state, connection, token and every command among submit, cancel, release,
   force-release, results: if anything happens (an effect is produced or the set of units
   changes) then a work type decided about the command, and either the connection is the unix
   socket, or that type does not verify and no token was sent, or a key is configured and the
   oracle calls the token valid. *)
Theorem C15_effect_requires_authorization :
  forall (jwt : bytes -> jwt_result) (key_ok : bool) st c tok m st' r effs,
  exec jwt key_ok st c tok m = (st', r, effs) -> protected m = true ->
  (effs <> [] \/ st' <> st) ->
  exists k, deciding_kind st m = Some k /\
    (c = Unix \/
     (should_verify k = false /\ tok = []) \/
     (tok <> [] /\ key_ok = true /\ jwt tok = JValid)).
Proof. exact effect_requires_authorization. Qed.
Print Assumptions C15_effect_requires_authorization.

(* Read the other way: verifying work type, not the unix socket, and the token is absent/empty
   or anything the oracle does not call valid (or no key is configured): the command is refused —
   state unchanged, no unit created, stopped, removed or read, error reply. *)
Theorem C15_unauthorized_refused :
  forall (jwt : bytes -> jwt_result) (key_ok : bool) st c tok m k,
  protected m = true -> deciding_kind st m = Some k ->
  should_verify k = true -> c <> Unix ->
  (tok = [] \/ key_ok = false \/ jwt tok <> JValid) ->
  exists e, exec jwt key_ok st c tok m = (st, RError e, []).
Proof.
  intros jwt key_ok st c tok m k Hp Hk Hv Hc Ht.
  destruct (exec_protected_kind jwt key_ok st c tok m k Hp Hk) as [H|Ha]; [exact H|].
  (* let through: then, by what the decision is, one of the three hypotheses fails *)
  apply authorize_allow_iff in Ha.
  destruct Ha as [[H _]|[_ [H|(H1 & H2 & H3)]]]; [congruence|contradiction|].
  destruct Ht as [Ht|[Ht|Ht]]; congruence.
Qed.
Print Assumptions C15_unauthorized_refused.

(* A token sent to a work type that does not expect one is refused as well — on every kind of
   connection. *)
Theorem C15_unexpected_token_refused :
  forall (jwt : bytes -> jwt_result) (key_ok : bool) st c tok m k,
  protected m = true -> deciding_kind st m = Some k ->
  should_verify k = false -> tok <> [] ->
  exists e, exec jwt key_ok st c tok m = (st, RError e, []).
Proof. exact unexpected_token_refused. Qed.
Print Assumptions C15_unexpected_token_refused.

(* the decision itself, exactly *)
Theorem C15_authorize_exactly :
  forall (jwt : bytes -> jwt_result) (key_ok : bool) k c tok,
  authorize jwt key_ok k c tok = Allow <->
  (should_verify k = false /\ tok = []) \/
  (should_verify k = true /\ (c = Unix \/ (tok <> [] /\ key_ok = true /\ jwt tok = JValid))).
Proof. exact authorize_allow_iff. Qed.
Print Assumptions C15_authorize_exactly.

(* Work type names.  The verification decision and the allocation use ONE lookup of the submitted
   name (exact byte equality, like Go's map): a local submit that creates a unit was authorized
   for exactly the class the unit is created with. *)
Theorem C15_decision_for_created_type :
  forall (jwt : bytes -> jwt_result) (key_ok : bool) (r : registry) st c tok newid name signwork st' rp,
  exec_submit_name jwt key_ok r st c tok newid name false signwork = (st', rp, [ECreated newid]) ->
  authorize jwt key_ok (classify r name signwork) c tok = Allow /\
  st' = st ++ [(newid, mkunit (match classify r name signwork with WRemote _ => WRemote false | k => k end) false)].
Proof. exact decision_for_created_type. Qed.
Print Assumptions C15_decision_for_created_type.

(* so a unit of a verifying type is created only over the unix socket or with a valid token *)
Theorem C15_verifying_unit_needs_token :
  forall (jwt : bytes -> jwt_result) (key_ok : bool) (r : registry) st c tok newid name signwork st' rp,
  exec_submit_name jwt key_ok r st c tok newid name false signwork = (st', rp, [ECreated newid]) ->
  reg_lookup name r = Some true -> name <> s_remote ->
  c = Unix \/ (tok <> [] /\ key_ok = true /\ jwt tok = JValid).
Proof.
  intros jwt key_ok r st c tok newid name signwork st' rp He Hr Hn.
  apply decision_for_created_type in He as [Ha _].
  rewrite (classify_registered _ _ _ Hn), Hr in Ha. apply authorize_allow_iff in Ha.
  destruct Ha as [[H _]|[_ H]]; [discriminate|exact H].
Qed.
Print Assumptions C15_verifying_unit_needs_token.

(* and any other spelling (not registered) creates nothing on this node *)
Theorem C15_unknown_name_creates_nothing :
  forall (jwt : bytes -> jwt_result) (key_ok : bool) (r : registry) st c tok newid name signwork,
  reg_lookup name r = None -> name <> s_remote ->
  exists e, exec_submit_name jwt key_ok r st c tok newid name false signwork = (st, RError e, []).
Proof.
  intros jwt key_ok r st c tok newid name signwork Hr Hn.
  unfold exec_submit_name. rewrite (classify_registered _ _ _ Hn), Hr. simpl.
  destruct (lookup newid st); [eauto|].
  destruct (authorize jwt key_ok WUnknown c tok); eauto.
Qed.
Print Assumptions C15_unknown_name_creates_nothing.

(* The signing side, end to end.  A remote submission (startRemoteUnit at the submitting node,
   createSignature with its signing key and `tokenexpiration`) to a VERIFYING work type of the
   target (which has a verification key configured: [remote_submit_decision] fixes key_ok = true)
   is let through there iff it was signed, with the key the target verifies with, and has not
   expired. *)
Theorem C15_remote_submit_to_verifying_type :
  forall sk (expiration elapsed : Z) signwork vk (r : registry) target name,
  reg_lookup name r = Some true -> name <> s_remote ->
  (remote_submit_decision sk expiration elapsed signwork vk r target name = Some Allow <->
   signwork = true /\ sk = Some vk /\ (elapsed < expiration)%Z).
Proof. exact remote_submit_to_verifying_type. Qed.
Print Assumptions C15_remote_submit_to_verifying_type.

(* to a work type that does not verify, the signed submission is the one that is refused *)
Theorem C15_remote_submit_to_plain_type :
  forall sk (expiration elapsed : Z) signwork vk (r : registry) target name,
  reg_lookup name r = Some false -> name <> s_remote ->
  (remote_submit_decision sk expiration elapsed signwork vk r target name = Some Allow <-> signwork = false).
Proof. exact remote_submit_to_plain_type. Qed.
Print Assumptions C15_remote_submit_to_plain_type.

(* Which connection is "the local socket": the test compares the WHOLE network name with "unix".
   The network name of a mesh stream contains the node ID, which is free text; whatever the node ID
   (and the de-duplication suffix) is, a mesh stream and a TCP connection are not the local socket
   (a mesh network name starts with "netceptor-": the first byte decides) *)
Theorem C15_network_name_decides : forall c node suffix,
  conn_is_unix (net_of c node suffix) = is_unix c.
Proof. intros [| |] node suffix; reflexivity. Qed.
Print Assumptions C15_network_name_decides.

(* ... whereas looking for "unix" anywhere in the name exempts every client of node "munix1" *)
Theorem C15_contains_unix_refuted :
  let node := [109; 117; 110; 105; 120; 49] in
  conn_is_unix (net_of Mesh node []) = false /\
  conn_contains_unix (net_of Mesh node []) = true /\
  ~ (forall c node suffix, conn_contains_unix (net_of c node suffix) = is_unix c).
Proof. exact contains_unix_refuted. Qed.
Print Assumptions C15_contains_unix_refuted.

(* non-vacuity: allowed and refused instances of the hypotheses on a concrete node, in this order:
   a valid token over TCP stops the verifying unit; an expired token over a mesh stream is refused;
   no token over TCP on a signed remote unit is refused; a valid token to a unit that does not
   expect one is refused, even on the unix socket; the unix socket needs no token; without a
   configured key even a well-formed token is refused *)
Example C15_nonvacuous :
  exec ex_jwt true ex_state Tcp [1] (Cancel 1)
    = ([(1, mkunit WVerify true); (2, mkunit WPlain false); (3, mkunit (WRemote true) false)], ROk, [EStopped 1]) /\
  exec ex_jwt true ex_state Mesh [2] (Release 1 true) = (ex_state, RError E_INVALID, []) /\
  exec ex_jwt true ex_state Tcp [] (Results 3) = (ex_state, RError E_EMPTY, []) /\
  exec ex_jwt true ex_state Unix [1] (Cancel 2) = (ex_state, RError E_UNEXPECTED, []) /\
  snd (exec ex_jwt true ex_state Unix [] (Results 1)) = [ERead 1] /\
  exec ex_jwt false ex_state Tcp [1] (Cancel 3) = (ex_state, RError E_NOKEY, []).
Proof. vm_compute. repeat split. Qed.

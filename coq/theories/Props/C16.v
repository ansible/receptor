(* Props/C16.v — property C16: senders learn when the target service does not exist; dials to it
   fail fast.  Statements and their assumptions; a proof of a few lines over the lemmas of Proofs/ stands
   here, the others are behind [exact].
   Model: Model/Unreach.v (handleMessageData / forwardMessage / sendUnreachable /
   handleUnreachable / the per-socket filter of StartUnreachable / monitorUnreachable of the
   repaired tree), tied to the code by `./check C16`.  [rt] is any routing whatsoever (a function
   from two node names to the list of nodes visited); [w] any list of nodes; hypotheses are
   boolean. *)
From Coq Require Import String.
From Receptor Require Import Model.Unreach Proofs.Unreach.
Open Scope N_scope.

(* "only that sender's socket receives it", "naming the original source and destination":
   whatever is sent, through whatever routing, with any hop budget and any fate at the listener,
   every socket that is told anything is the socket bound on the original source node to the
   original source service, and the four fields it reads are the four fields of the datagram *)
Theorem C16_notice_to_sender_only : forall fixed w rt mh hops p f nd s x,
  wf_world w = true ->
  utf8_valid (p_fn p) = true -> utf8_valid (p_fs p) = true ->
  utf8_valid (p_tn p) = true -> utf8_valid (p_ts p) = true ->
  In (nd, s, x) (o_recv (send_gen fixed w rt mh hops p f)) ->
  nd = p_fn p /\ s = p_fs p /\
  (exists n, find_node w nd = Some n /\ In s (nd_bound n)) /\
  nt_fn x = p_fn p /\ nt_tn x = p_tn p /\ nt_fs x = p_fs p /\ nt_ts x = p_ts p.
Proof. exact notice_to_sender_only. Qed.
Print Assumptions C16_notice_to_sender_only.

(* "the sender's socket receives a 'service unknown' notice": the datagram gets through [mid] to
   a live node [d] on which nothing listens on the addressed service, and the notice can travel
   back through [back]: the outcome is exactly one notification, at exactly the sending socket *)
Theorem C16_unknown_service_is_reported : forall w rt mh hops p f mid back d n,
  wf_world w = true ->
  utf8_valid (p_fn p) = true -> utf8_valid (p_fs p) = true ->
  beq_bytes (p_fn p) (p_tn p) = false ->
  too_long (p_fs p) || too_long (p_ts p) = false ->
  rt (p_fn p) (p_tn p) = mid ++ [p_tn p] -> transit_ok w mid hops p = true ->
  find_node w (p_tn p) = Some d -> fw_eval (nd_fw d) p = FwAccept ->
  reserved (p_ts p) = false -> mem (p_ts p) (nd_bound d) = false ->
  rt (p_tn p) (p_fn p) = back ++ [p_fn p] -> transit_ok w back mh (notice_pkt (p_tn p) p) = true ->
  find_node w (p_fn p) = Some n -> fw_eval (nd_fw n) (notice_pkt (p_tn p) p) = FwAccept ->
  mem (p_fs p) (nd_bound n) = true ->
  send w rt mh hops p f = mkout SNone None false [(p_fn p, p_fs p, notif_of (p_tn p) p PUnknown)].
Proof. exact (fun w rt mh hops p f => send_arrives w rt mh hops p f false). Qed.
Print Assumptions C16_unknown_service_is_reported.

(* "or was closed at any moment relative to the send": the socket exists when the datagram
   arrives and is closed before anybody reads it — same answer (repaired tree) *)
Theorem C16_closed_while_waiting_is_reported : forall w rt mh hops p mid back d n,
  wf_world w = true ->
  utf8_valid (p_fn p) = true -> utf8_valid (p_fs p) = true ->
  beq_bytes (p_fn p) (p_tn p) = false ->
  too_long (p_fs p) || too_long (p_ts p) = false ->
  rt (p_fn p) (p_tn p) = mid ++ [p_tn p] -> transit_ok w mid hops p = true ->
  find_node w (p_tn p) = Some d -> fw_eval (nd_fw d) p = FwAccept ->
  reserved (p_ts p) = false -> mem (p_ts p) (nd_bound d) = true ->
  rt (p_tn p) (p_fn p) = back ++ [p_fn p] -> transit_ok w back mh (notice_pkt (p_tn p) p) = true ->
  find_node w (p_fn p) = Some n -> fw_eval (nd_fw n) (notice_pkt (p_tn p) p) = FwAccept ->
  mem (p_fs p) (nd_bound n) = true ->
  send w rt mh hops p FClosedWaiting
  = mkout SNone None false [(p_fn p, p_fs p, notif_of (p_tn p) p PUnknown)].
Proof. exact (fun w rt mh hops p => send_arrives w rt mh hops p FClosedWaiting true). Qed.
Print Assumptions C16_closed_while_waiting_is_reported.

(* a service name of more than 8 bytes never reaches the wire (it would be cut to another name):
   the caller is told at once and nobody else anything *)
Theorem C16_too_long_name_is_refused : forall fixed w rt mh hops p f,
  too_long (p_fs p) || too_long (p_ts p) = true ->
  send_gen fixed w rt mh hops p f = mkout STooLong None false [].
Proof. intros fixed w rt mh hops p f H. unfold send_gen. now rewrite H. Qed.
Print Assumptions C16_too_long_name_is_refused.

(* "a packet silently dropped by policy produces no notice at all": nothing is returned, read or
   told to anybody, on either tree *)
Theorem C16_drop_is_silent : forall fixed w rt mh hops p f mid d rest nd,
  too_long (p_fs p) || too_long (p_ts p) = false ->
  rt (p_fn p) (p_tn p) = mid ++ d :: rest -> transit_ok w mid hops p = true ->
  find_node w d = Some nd -> fw_eval (nd_fw nd) p = FwDrop ->
  send_gen fixed w rt mh hops p f = quiet.
Proof. exact drop_is_silent. Qed.
Print Assumptions C16_drop_is_silent.

(* "a stream dial to such a service is abandoned because of that notice": the dial is cancelled
   exactly when its own socket is told 'service unknown' for the dialled address ... *)
Theorem C16_dial_cancelled_by_notice : forall w rt mh p f,
  dial w rt mh p f = DCancelled <->
  o_sync (send w rt mh mh p f) = SNone /\
  exists x, In (p_fn p, p_fs p, x) (o_recv (send w rt mh mh p f)) /\
            nt_pb x = PUnknown /\ nt_tn x = p_tn p /\ nt_ts x = p_ts p.
Proof. exact dial_cancelled_by_notice. Qed.
Print Assumptions C16_dial_cancelled_by_notice.

(* a notification cancels only the connection it names: on a socket shared by several
   connections (everything one listener has accepted) a monitor fires only for the connection
   with the very same four addresses as the datagram that caused the notification *)
Theorem C16_monitor_only_own_connection : forall fixed w rt mh hops p f nd s x p',
  wf_world w = true ->
  utf8_valid (p_fn p) = true -> utf8_valid (p_fs p) = true ->
  utf8_valid (p_tn p) = true -> utf8_valid (p_ts p) = true ->
  In (nd, s, x) (o_recv (send_gen fixed w rt mh hops p f)) ->
  monitor_match p' (nd, s, x) = true ->
  p_fn p' = p_fn p /\ p_fs p' = p_fs p /\ p_tn p' = p_tn p /\ p_ts p' = p_ts p.
Proof.
  intros fixed w rt mh hops p f nd s x p' Hw U1 U2 U3 U4 Hin Hm.
  destruct (notice_to_sender_only fixed w rt mh hops p f nd s x Hw U1 U2 U3 U4 Hin) as (A & B & _ & _ & C & _ & D).
  apply monitor_match_spec in Hm as (E1 & E2 & _ & E3 & E4). repeat split; congruence.
Qed.
Print Assumptions C16_monitor_only_own_connection.

(* ... which is what happens when nothing listens there ... *)
Theorem C16_dial_to_unbound_service_is_cancelled : forall w rt mh p f mid back d n,
  wf_world w = true ->
  utf8_valid (p_fn p) = true -> utf8_valid (p_fs p) = true ->
  utf8_valid (p_tn p) = true -> utf8_valid (p_ts p) = true ->
  beq_bytes (p_fn p) (p_tn p) = false ->
  too_long (p_fs p) || too_long (p_ts p) = false ->
  rt (p_fn p) (p_tn p) = mid ++ [p_tn p] -> transit_ok w mid mh p = true ->
  find_node w (p_tn p) = Some d -> fw_eval (nd_fw d) p = FwAccept ->
  reserved (p_ts p) = false -> mem (p_ts p) (nd_bound d) = false ->
  rt (p_tn p) (p_fn p) = back ++ [p_fn p] -> transit_ok w back mh (notice_pkt (p_tn p) p) = true ->
  find_node w (p_fn p) = Some n -> fw_eval (nd_fw n) (notice_pkt (p_tn p) p) = FwAccept ->
  mem (p_fs p) (nd_bound n) = true ->
  dial w rt mh p f = DCancelled.
Proof.
  intros w rt mh p f mid back d n Hw U1 U2 U3 U4 Hne Hl Hrt Htr Hfd Hfw Hres Hunb Hback Htrb Hfn Hfwn Hb.
  apply dial_cancelled_by_notice.
  rewrite (send_arrives w rt mh mh p f false mid back d n) by assumption.
  split; [reflexivity|]. eexists. split; [left; reflexivity|].
  cbn. rewrite !json_rt_valid by assumption. auto.
Qed.
Print Assumptions C16_dial_to_unbound_service_is_cancelled.

(* ... and not when the dial's packets are dropped by policy *)
Theorem C16_dropped_dial_is_not_cancelled : forall w rt mh p f mid d rest nd,
  too_long (p_fs p) || too_long (p_ts p) = false ->
  rt (p_fn p) (p_tn p) = mid ++ d :: rest -> transit_ok w mid mh p = true ->
  find_node w d = Some nd -> fw_eval (nd_fw nd) p = FwDrop ->
  dial w rt mh p f = DTimesOut.
Proof.
  intros. unfold dial, send. erewrite drop_is_silent by eassumption. reflexivity.
Qed.
Print Assumptions C16_dropped_dial_is_not_cancelled.

(* the hypotheses are satisfiable: three nodes in a line, unrelated sockets on each, a firewall
   rule on the transit node *)
Example C16_nonvacuous :
  let w := [mknode (str "a") [str "src"; str "x"] []; mknode (str "m") [str "y"] [mkrule None None None (Some (str "blk")) FwDrop];
            mknode (str "b") [str "z"] []] in
  let rt := line_route [str "a"; str "m"; str "b"] in
  let p := mkpkt (str "a") (str "src") (str "b") (str "tgt") in
  wf_world w = true /\ rt (p_fn p) (p_tn p) = [str "a"; str "m"] ++ [p_tn p] /\
  transit_ok w [str "a"; str "m"] 30 p = true /\
  rt (p_tn p) (p_fn p) = [str "b"; str "m"] ++ [p_fn p] /\
  transit_ok w [str "b"; str "m"] 30 (notice_pkt (p_tn p) p) = true /\
  send w rt 30 30 p FRead = mkout SNone None false [(str "a", str "src", notif_of (str "b") p PUnknown)].
Proof. exact unknown_service_hypotheses_hold. Qed.

(* the pinned tree dropped a datagram that was waiting for a socket when the socket was closed:
   nobody read it and nobody was told (repaired by /repo commit c31b6cb; kept as a checked fact) *)
Theorem C16_closed_while_waiting_pinned_refuted :
  wf_world (ex_world [str "tgt"]) = true /\
  send_pinned (ex_world [str "tgt"]) ex_rt 30 30 ex_pkt FClosedWaiting = quiet /\
  send (ex_world [str "tgt"]) ex_rt 30 30 ex_pkt FClosedWaiting
  = mkout SNone None false [(str "a", str "src", notif_of (str "b") ex_pkt PUnknown)].
Proof. exact closed_while_waiting_pinned_refuted. Qed.
Print Assumptions C16_closed_while_waiting_pinned_refuted.

(* open finding: the notice carries the four names as JSON strings.  Without the UTF-8
   hypotheses the first theorem is false: the socket of a service whose name is not valid UTF-8
   is told nothing and a different socket (bound to the replacement-character spelling) is told
   instead ... *)
Theorem C16_non_utf8_sender_refuted :
  let w := [mknode (str "a") [bad_name; twin_name] []; mknode (str "b") [] []] in
  let p := mkpkt (str "a") bad_name (str "b") (str "tgt") in
  wf_world w = true /\ utf8_valid bad_name = false /\
  exists x, o_recv (send w ex_rt 30 30 p FRead) = [(str "a", twin_name, x)] /\ twin_name <> bad_name.
Proof. exact non_utf8_sender_refuted. Qed.
Print Assumptions C16_non_utf8_sender_refuted.

(* ... and a dial to an unbound service whose name is not valid UTF-8 is not cancelled *)
Theorem C16_non_utf8_target_dial_refuted :
  let w := [mknode (str "a") [str "eph"] []; mknode (str "b") [] []] in
  let p := mkpkt (str "a") (str "eph") (str "b") [110; 111; 255] in
  wf_world w = true /\ dial w ex_rt 30 p FRead = DTimesOut.
Proof. exact non_utf8_target_dial_refuted. Qed.
Print Assumptions C16_non_utf8_target_dial_refuted.

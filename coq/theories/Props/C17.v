(* Props/C17.v — property C17: sockets, listeners and streams close at any time without crash or
   leak.  Statements and their assumptions; a proof of a few lines over the lemmas of Proofs/ stands
   here, the others are behind [exact].
   Model: Model/Life.v — the bookkeeping (listener registry, subscriptions, goroutines per spawn
   site) of pkg/netceptor's sockets, listeners and connections as a function of the operations
   performed, with explicit Panic outcomes; [Fixed] mirrors the repaired tree, [Pinned] the tree as
   pinned.  PARTIAL by design: goroutine scheduling and quic-go's internals are visible only to
   the harness's runtime oracle (goroutine profile and registries of real meshes); the theorems
   are about the bookkeeping, which `./check C17` ties to the code on every run. *)
From Receptor Require Import Model.Life Proofs.Life.
Open Scope N_scope.

(* "never crashes the process": no history of operations whatsoever — double closes, closes with
   deliverers waiting, closes after shutdown, operations on unknown objects — reaches a panic *)
Theorem C17_close_never_panics : forall h s p, run Fixed s h <> Panic p.
Proof. exact close_never_panics. Qed.
Print Assumptions C17_close_never_panics.

(* "once both ends are done every service name, goroutine and subscription it used is released":
   in ANY state in which every socket, listener and subscription is closed and every connection
   closed at both ends ([all_closed]), every node's registry is empty and no spawn site has a
   goroutine left.  Closed sockets and listeners alone give this much (Proofs/Life.v
   closed_objects_release_everything): in the model a subscription lives on its socket and a
   connection on its listener *)
Theorem C17_all_closed_releases_everything : forall s n,
  all_closed s = true ->
  registry Fixed s n = [] /\ forall g, goroutines Fixed s g n = 0%nat.
Proof. exact all_closed_releases_everything. Qed.
Print Assumptions C17_all_closed_releases_everything.

(* "resource use does not grow with the number of past connections" — PARTIAL: a connection that
   both ends are done with and that at least one end finished with CloseConnection holds nothing,
   while its listener and everything else lives on ... *)
Theorem C17_finished_connection_releases_partial : forall s c,
  conn_done c = true -> (c_dcc c || c_acc c) = true -> conn_residue Fixed s c = 0%nat.
Proof.
  intros s c Hd Hc. destruct (finished_conn_dead s c Hd Hc) as [E Dead]. unfold conn_residue.
  destruct (Dead (c_dnode c)) as (-> & -> & _). destruct (Dead (lis_node s (c_lis c))) as (_ & _ & ->).
  now rewrite E.
Qed.
Print Assumptions C17_finished_connection_releases_partial.

(* ... for any number of such connections *)
Theorem C17_finished_connections_hold_nothing_partial : forall s n,
  forallb (fun x => conn_done (snd x) && (c_dcc (snd x) || c_acc (snd x))) (conns s) = true ->
  filter (fun x => (c_dnode (snd x) =? n) && eph_open Fixed s (snd x)) (conns s) = [] /\
  goroutines Fixed s SDial n = 0%nat /\ goroutines Fixed s SAccept n = 0%nat.
Proof.
  intros s n H. destruct (dead_conns_hold_nothing s n) as (Fe & Ca & Cm & Cd).
  { intros x Hx. pose proof (proj1 (forallb_forall _ _) H x Hx) as E. cbn beta in E.
    apply andb_true_iff in E as [Hd Hc]. now apply finished_conn_dead. }
  cbn [goroutines]. now rewrite Fe, Ca, Cm, Cd.
Qed.
Print Assumptions C17_finished_connections_hold_nothing_partial.

(* ... REFUTED without that hypothesis (open finding): when both ends only call Conn.Close, which
   closes one direction of the stream, nothing ever ends the QUIC connection (keep-alives), so the
   dialler's ephemeral service and its goroutines stay for as long as the listener lives *)
Theorem C17_close_close_refuted :
  exists s c, run Fixed init h_close_close = Ok s /\ lookup 2 (conns s) = Some c /\ conn_done c = true /\
              registry Fixed s 0 = [20] /\ conn_residue Fixed s c = 2%nat /\
              goroutines Fixed s SDial 0 = 1%nat /\ goroutines Fixed s SStartUnreachable 0 = 2%nat.
Proof. exact finished_connection_close_close_refuted. Qed.
Print Assumptions C17_close_close_refuted.

(* "shutting a node down stops all of its background activity": after Shutdown, whatever else
   happens, the node has no goroutine at any spawn site *)
Theorem C17_shutdown_stops_all : forall s n s1 h s2 g,
  step Fixed s (Shutdown n) = Ok s1 -> run Fixed s1 h = Ok s2 -> goroutines Fixed s2 g n = 0%nat.
Proof. exact shutdown_stops_all. Qed.
Print Assumptions C17_shutdown_stops_all.

(* "repeatedly": a second Close of a socket changes nothing *)
Theorem C17_close_is_idempotent : forall s id s1,
  step Fixed s (PcClose id) = Ok s1 -> step Fixed s1 (PcClose id) = Ok s1.
Proof. exact close_is_idempotent. Qed.
Print Assumptions C17_close_is_idempotent.

(* The model lets CancelRead, SetDeadline..., Read and Write on either end leave the bookkeeping
   as it is (a modelling decision, which the histories of `./check C17` hold against the code:
   there the peer's CancelRead makes the QUIC stream's own Close fail); so in the model what
   Conn.Close / CloseConnection (or any other operation) releases is the same after any number
   of them *)
Theorem C17_stream_op_changes_nothing : forall v s cid d,
  step v s (StreamOp cid d) = Ok s \/ step v s (StreamOp cid d) = Reject.
Proof. exact stream_op_changes_nothing. Qed.
Print Assumptions C17_stream_op_changes_nothing.

Theorem C17_close_releases_the_same_after_stream_ops : forall v s ops o,
  Forall (fun x => exists cid d, x = StreamOp cid d) ops ->
  run v s (ops ++ [o]) = run v s [o].
Proof.
  intros v s ops o. apply run_after_stream_ops.
Qed.
Print Assumptions C17_close_releases_the_same_after_stream_ops.

(* In the model of the repaired tree a Ping, answered or not, changes nothing: the defining
   clause of [step] read back (the pinned tree left a reader goroutine behind, below); that
   SendPing behaves so is what the harness's goroutine profile checks *)
Theorem C17_ping_leaves_nothing : forall s n ok,
  step Fixed s (PingOp n ok) = Ok s \/ step Fixed s (PingOp n ok) = Reject.
Proof. intros. cbn [step]. destruct (is_down s n); auto. Qed.
Print Assumptions C17_ping_leaves_nothing.

(* non-vacuity: a history with a socket, a subscription, waiting deliverers, a listener, two
   connections and a ping, every object closed (sockets and listeners twice, connections by
   Conn.Close and by CloseConnection), ends in an all-closed state *)
Example C17_nonvacuous :
  exists s, run Fixed init h_full = Ok s /\ all_closed s = true /\ length (conns s) = 2%nat.
Proof. exact full_history_all_closed. Qed.

(* the pinned tree, as checked facts (each repaired by a fix: commit) *)
Theorem C17_pinned_double_close_socket_refuted :
  run Pinned init [ListenPacket 1 0 10 true; PcClose 1; PcClose 1] = Panic PNilAdvert.
Proof. exact pinned_double_close_socket_refuted. Qed.
Print Assumptions C17_pinned_double_close_socket_refuted.

Theorem C17_pinned_double_close_listener_refuted :
  run Pinned init [Listen 1 0 10 true; LiClose 1; LiClose 1] = Panic PNilAdvert.
Proof. exact pinned_double_close_listener_refuted. Qed.
Print Assumptions C17_pinned_double_close_listener_refuted.

Theorem C17_pinned_two_deliverers_refuted :
  run Pinned init [ListenPacket 1 0 10 false; Park 1; Park 1; PcClose 1] = Panic PDoubleCloseChan.
Proof. exact pinned_two_deliverers_refuted. Qed.
Print Assumptions C17_pinned_two_deliverers_refuted.

Theorem C17_pinned_dial_closeconnection_refuted :
  (exists s, run Pinned init h_dial_cc = Ok s /\ registry Pinned s 0 = [20] /\ goroutines Pinned s SStartUnreachable 0 = 2%nat) /\
  (exists s, run Fixed init h_dial_cc = Ok s /\ registry Fixed s 0 = [] /\ forall g, goroutines Fixed s g 0 = 0%nat).
Proof. exact pinned_dial_closeconnection_refuted. Qed.
Print Assumptions C17_pinned_dial_closeconnection_refuted.

Theorem C17_pinned_second_close_unregisters_refuted :
  (exists s, run Pinned init h_reuse = Ok s /\ registry Pinned s 0 = []) /\
  (exists s, run Fixed init h_reuse = Ok s /\ registry Fixed s 0 = [10]).
Proof. exact pinned_second_close_unregisters_refuted. Qed.
Print Assumptions C17_pinned_second_close_unregisters_refuted.

Theorem C17_pinned_failed_ping_refuted :
  exists s, run Pinned init [PingOp 0 false; PingOp 0 true; PingOp 0 false; PingOp 0 false] = Ok s /\
            goroutines Pinned s SPing 0 = 3%nat.
Proof. exact pinned_failed_ping_refuted. Qed.
Print Assumptions C17_pinned_failed_ping_refuted.

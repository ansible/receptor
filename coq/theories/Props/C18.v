(* Props/C18.v — property C18: service advertisements converge; a withdrawn service is never
   resurrected; an older advertisement never replaces a newer one.
   Models: Model/Ads.v (handleServiceAdvertisement, step-exact correspondence by `./check C18`;
   [handle_ad] = the tree after the tombstone "fix:" commit, [handle_ad_pinned] = the pinned tree),
   Model/AdsWorld.v (a mesh of such nodes, any delivery order, no loss) and Model/AdsConc.v (the
   handler as a test and an effect; concurrent batches against some sequential order).
   Statements and their assumptions; a proof of a few lines over the lemmas of Proofs/ stands
   here, the others are behind [exact]. *)
From Coq Require Import Permutation Lia.
From Receptor Require Import Model.AdsWorld Model.AdsConc Proofs.Ads Proofs.AdsWorld Proofs.AdsConc.
Open Scope N_scope.

(* 1. An advertisement or withdrawal that is not newer than the stored advertisement changes
      nothing and is not relayed. *)
Theorem C18_older_never_replaces_newer : forall st a recv t b,
  listed st (a_node a) (a_svc a) = Some (t, b) -> a_time a <= t -> handle_ad st a recv = (st, []).
Proof. exact older_never_replaces_newer. Qed.
Print Assumptions C18_older_never_replaces_newer.

(* 2. Once a node has learned a withdrawal, then after EVERY further history (any order,
      duplication, delay of older messages) the service is listed again only with an
      advertisement strictly newer than the withdrawal, i.e. advertised anew by its owner. *)
Theorem C18_withdrawn_not_resurrected : forall st a recv h,
  wf st -> a_cancel a = true ->
  match listed st (a_node a) (a_svc a) with Some (t, _) => t < a_time a | None => True end ->
  forall t b, listed (run_ads handle_ad (fst (handle_ad st a recv)) h) (a_node a) (a_svc a) = Some (t, b) ->
  a_time a < t.
Proof. exact withdrawn_not_resurrected. Qed.
Print Assumptions C18_withdrawn_not_resurrected.

(* every state reached from the empty table by received messages satisfies [wf] *)
Theorem C18_wf_reachable : forall conns h, wf (run_ads handle_ad (ads_init conns) h).
Proof. intros conns h. apply wf_run, wf_init. Qed.
Print Assumptions C18_wf_reachable.

(* 3. Knowledge (newest advertisement or withdrawal time per node/service) never regresses. *)
Theorem C18_knowledge_monotone : forall h st n s, know st n s <= know (run_ads handle_ad st h) n s.
Proof. exact knowledge_monotone. Qed.
Print Assumptions C18_knowledge_monotone.

(* 4. A message not newer than a known withdrawal is neither accepted nor relayed (so a withdrawal
      that arrives again is not relayed again); relays never go back to the sender. *)
Theorem C18_buried_not_relayed : forall st a recv t,
  tomb_of st (a_node a) (a_svc a) = Some t -> a_time a <= t -> handle_ad st a recv = (st, []).
Proof.
  intros st a recv t Ht Hle. apply handle_ad_rejected, not_true_iff_false. rewrite decide_newer, Ht.
  intros [_ H]. lia.
Qed.
Print Assumptions C18_buried_not_relayed.

Theorem C18_relay_never_back : forall st a recv c x,
  In (c, x) (snd (handle_ad st a recv)) -> c <> recv /\ In c (as_conns st) /\ x = a.
Proof. exact ad_relay_never_back. Qed.
Print Assumptions C18_relay_never_back.

(* 5. CONVERGENCE.  The invariant [Inv] holds right after the owner o has sent its newest
      message M about (n, s) to all its neighbours, nothing else being in flight
      (C18_invariant_after_origination); it is preserved by delivering the messages in flight in
      ANY order (C18_invariant_preserved); and when nothing is in flight any more every node
      reachable from o, other than o itself, lists (n, s) exactly as M says (C18_ads_converge).
      None of the three proofs uses 0 < T, and the last does not use what is said of M. *)
Theorem C18_invariant_after_origination : forall n s T M o, 
  a_node M = n /\ a_svc M = s /\ a_time M = T -> 0 < T ->
  forall w sto, topo_ok w -> node_at w o = Some sto ->
  aw_flight w = ad_msgs o (map (fun c => (c, M)) (as_conns sto)) ->
  (forall i st, node_at w i = Some st -> know st n s <= T /\ (i <> o -> know st n s < T)) ->
  Inv n s T M o w.
Proof. intros n s T M o HM _. exact (originate_inv n s T M o HM). Qed.
Print Assumptions C18_invariant_after_origination.

Theorem C18_invariant_preserved : forall n s T M o,
  a_node M = n /\ a_svc M = s /\ a_time M = T -> 0 < T ->
  forall ks w w', Inv n s T M o w -> awrun w ks = Some w' -> Inv n s T M o w'.
Proof. intros n s T M o HM _. exact (awrun_inv n s T M o HM). Qed.
Print Assumptions C18_invariant_preserved.

Theorem C18_ads_converge : forall n s T M o,
  a_node M = n /\ a_svc M = s /\ a_time M = T -> 0 < T ->
  forall w u, Inv n s T M o w -> aw_flight w = [] -> reach w o u -> u <> o ->
  exists st, node_at w u = Some st /\
             listed st n s = if a_cancel M then None else Some (T, a_body M).
Proof. intros n s T M o _ _. exact (ads_converge n s T M o). Qed.
Print Assumptions C18_ads_converge.

(* non-vacuity: a concrete three-node line reaches quiescence and the far node lists the service *)
Example C18_nonvacuous :
  exists w', awrun ex_world [0%nat; 0%nat] = Some w' /\ aw_flight w' = [] /\
             exists st, node_at w' 2 = Some st /\ listed st 0 7 = Some (5, 0).
Proof. exact ex_converged. Qed.

(* 6. The pinned tree violated (2) and relayed a withdrawal for an absent entry every time it
      arrived; both are machine-checked facts about [handle_ad_pinned] (fixed in /repo). *)
Theorem C18_pinned_resurrects :
  listed (run_ads handle_ad_pinned (ads_init [2; 3]) [(mk 5 7 9 true, 2); (mk 5 7 3 false, 3)]) 5 7
  = Some (3, 0).
Proof. vm_compute. reflexivity. Qed.
Print Assumptions C18_pinned_resurrects.

Theorem C18_pinned_withdrawal_relayed_again :
  let st1 := fst (handle_ad_pinned (ads_init [2; 3]) (mk 5 7 9 true) 2) in
  snd (handle_ad_pinned st1 (mk 5 7 9 true) 2) <> [].
Proof. vm_compute. discriminate. Qed.
Print Assumptions C18_pinned_withdrawal_relayed_again.

(* 7. OPEN FINDING (partial): neither the code nor the model has an expiry or a reachability
      filter.  The theorem is the frame property: an entry changes only through messages about
      that very service; so a node that stops without withdrawing, or becomes unreachable, stays
      listed.  The convergence statement (5) is therefore about the nodes whose messages arrive,
      not about "live nodes it can reach". *)
Theorem C18_no_expiry_partial : forall h st n s,
  Forall (fun p => (a_node (fst p), a_svc (fst p)) <> (n, s)) h ->
  listed (run_ads handle_ad st h) n s = listed st n s.
Proof.
  intros h st n s Hall.
  apply (run_ads_invariant_on _ (fun st' => listed st' n s = listed st n s)) with (2 := Hall); [|reflexivity].
  intros st' a r Hne H. rewrite <- H. now apply listed_step_other.
Qed.
Print Assumptions C18_no_expiry_partial.

(* 8. CONCURRENT DELIVERY.  Sessions deliver from their own goroutines, so several messages about one
      service can be inside the handler at once.  The handler is one critical section: deciding and
      applying on the same tables ([handle_ad] = [handle_split st st]), hence a concurrent batch acts like
      some sequential order, to which theorems 1-5 apply.  The harness checks exactly that on the real
      node: [conc_ads_check] holds iff the observed table and relays are what the model yields for SOME
      permutation of the batch.  With the decision and the effect in separate critical sections an older
      advertisement replaces a newer one and is relayed. *)
Theorem C18_handler_decides_and_applies_atomically : forall st a recv,
  handle_ad st a recv = handle_split st st a recv.
Proof. exact handle_ad_is_decide_apply. Qed.
Print Assumptions C18_handler_decides_and_applies_atomically.

Theorem C18_linearizability_check_exact : forall c,
  conc_ads_check c = true <-> exists p, Permutation (ca_batch c) p /\ explains c p = true.
Proof. intro c. apply (existsb_perms (explains c)). Qed.
Print Assumptions C18_linearizability_check_exact.

Theorem C18_split_handler_refuted :
  let st0 := ads_init [2; 3] in
  let '(st1, r1) := handle_split st0 st0 ex_new 2 in
  let '(st2, r2) := handle_split st0 st1 ex_old 3 in
  listed st1 5 1 = Some (9, 2) /\ listed st2 5 1 = Some (4, 1) /\ r2 <> [].
Proof. vm_compute. repeat split; try reflexivity. discriminate. Qed.
Print Assumptions C18_split_handler_refuted.

Example C18_atomic_handler_keeps_newer :
  let st0 := ads_init [2; 3] in
  let '(st1, r1) := handle_ad st0 ex_new 2 in
  let '(st2, r2) := handle_ad st1 ex_old 3 in
  listed st2 5 1 = Some (9, 2) /\ r2 = [].
Proof. vm_compute. split; reflexivity. Qed.

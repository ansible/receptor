(* Props/C19.v — property C19: secret work parameters are never disclosed by the API nor sent
   without TLS.  Statements and their assumptions; a proof of a few lines over the lemmas of Proofs/ stands
   here, the others are behind [exact].
   Model: Model/Secrets.v (AllocateRemoteUnit, remoteUnit.Status/UnredactedStatus,
   unitStatusForCFR, reload from the status file), tied to the code by `./check C19`. *)
From Coq Require Import String.
From Receptor Require Import Model.Secrets Proofs.Secrets.
Open Scope N_scope.

(* what "secret" means: with ASCII capitals lowered, the name starts with "secret_" *)
Theorem C19_secret_names : forall k,
  is_secret k = true <-> exists rest, map ascii_lower k = secret_prefix ++ rest.
Proof. intro k. unfold is_secret. apply has_prefix_app. Qed.
Print Assumptions C19_secret_names.

(* For every state, every parameter map p and every submission that leaves a unit behind
   (accepted, or failed only at the ttl after allocation), and for EVERY later history of
   submit / status / list / cancel / release / restart / delivery operations that does not
   allocate the same identifier again: whatever parameter map any reply shows for that unit is
   exactly [redact p] — it contains no secret name, and (k,v) is in it iff (k,v) was submitted
   and k is not secret (same order, values unchanged). *)
Theorem C19_no_secret_in_any_response :
  forall profiles st id node wtype tls ttl p st1 r h,
  step profiles st (Submit id node wtype tls ttl p) = (st1, r) -> leaves_unit r = true ->
  not_resubmitted id h = true ->
  forall x q, In x (snd (run profiles st1 h)) -> shown id x = Some q ->
    q = redact p /\ has_secrets q = false /\
    (forall k v, In (k, v) q <-> In (k, v) p /\ is_secret k = false).
Proof. exact no_secret_in_any_response. Qed.
Print Assumptions C19_no_secret_in_any_response.

(* A remote submission with a secret parameter and no TLS client profile is refused with the
   whole state — index, status files, everything sent so far — unchanged. *)
Theorem C19_refused_before_store : forall profiles st id node wtype ttl_ok p,
  has_secrets p = true ->
  lookup id (mem st) = None -> lookup id (disk st) = None ->
  step profiles st (Submit id node wtype [] ttl_ok p) = (st, RErr E_SECRET).
Proof. exact refused_before_store. Qed.
Print Assumptions C19_refused_before_store.

(* In every history from the empty node, every transmission that carries a secret parameter was
   made with a TLS client profile. *)
Theorem C19_never_sent_without_tls : forall profiles h m,
  In m (sent (fst (run profiles init h))) -> has_secrets (s_params m) = true -> s_tls m <> [].
Proof.
  intros profiles h m. apply (run_inv profiles h init inv_init).
Qed.
Print Assumptions C19_never_sent_without_tls.

(* right after the submission the record kept on disk is the unredacted one: redaction happens on
   the way out *)
Theorem C19_stored_unredacted : forall profiles st id node wtype tls ttl p st1 r,
  step profiles st (Submit id node wtype tls ttl p) = (st1, r) -> leaves_unit r = true ->
  exists rec, lookup id (disk st1) = Some rec /\ u_params rec = p.
Proof.
  intros profiles st id node wtype tls ttl p st1 r E Hl.
  destruct (submit_leaves_unit _ _ _ _ _ _ _ _ _ _ E Hl) as (rec & st0 & Hp & ->).
  exists rec. simpl. now rewrite lookup_store, N.eqb_refl.
Qed.
Print Assumptions C19_stored_unredacted.

(* Kubernetes work units: secret_kube_config and secret_kube_pod are blanked in everything a status
   or list reply is built from *)
Theorem C19_kube_view_hides : forall fl r,
  k_config (kube_view fl r) = [] /\ k_pod (kube_view fl r) = [] /\
  k_namespace (kube_view fl r) = k_namespace r /\ k_image (kube_view fl r) = k_image r.
Proof. repeat split. Qed.
Print Assumptions C19_kube_view_hides.

(* ... for every setting of the work type's permission flags: the blanking depends on none of them *)
Theorem C19_kube_view_flag_independent : forall fl fl' r, kube_view fl r = kube_view fl' r.
Proof. reflexivity. Qed.
Print Assumptions C19_kube_view_flag_independent.

(* non-vacuity: an accepted submission with two secret and two other parameters; status, list
   and list-one replies before and after a restart and a cancel all show the two others *)
Example C19_nonvacuous :
  let '(st1, r) := step [str "cli"%string] init (Submit 1 (str "b") (str "cat") (str "cli") true ex_params)%string in
  leaves_unit r = true /\ not_resubmitted 1 ex_history = true /\
  map (shown 1) (snd (run [str "cli"%string] st1 ex_history))
  = [Some [(str "plain", str "v1"); (str "xsecret_", str "v2")]; None;
     Some [(str "plain", str "v1"); (str "xsecret_", str "v2")]; None;
     Some [(str "plain", str "v1"); (str "xsecret_", str "v2")]]%string.
Proof. vm_compute. repeat split. Qed.

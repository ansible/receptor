(* Props/C20.v — property C20: issued certificates carry exactly the requested names.
   Statements and their assumptions; a proof of a few lines over the lemmas of Proofs/ stands
   here, the others are behind [exact].  Model: Model/San.v (mirrors
   pkg/utils/other_name.go after the "fix:" commit), tied to the code by `./check C20`. *)
From Coq Require Import String.
From Receptor Require Import Model.San Proofs.San.
Open Scope N_scope.

(* MakeReceptorSAN is total on in-memory inputs *)
Theorem C20_encoder_total : forall dns ips ids, exists v, make_san dns ips ids = Ok v.
Proof. intros dns ips ids. unfold make_san, make_san_with. eauto. Qed.
Print Assumptions C20_encoder_total.

(* reading the node IDs back from the encoder's output returns exactly the encoded IDs, for
   every list of IDs, DNS names and IP addresses within [san_ok] (each name shorter than 2^31 - 64
   bytes, the whole extension shorter than the 2^31 limit of the decoder; any UTF-8 content,
   duplicates, empty list) *)
Theorem C20_names_round_trip : forall dns ips ids v,
  san_ok dns ips ids = true -> forallb utf8_valid ids = true ->
  make_san dns ips ids = Ok v -> receptor_names v = Ok ids.
Proof. exact san_roundtrip. Qed.
Print Assumptions C20_names_round_trip.

(* ... and for IDs that are not UTF-8 (outside the property's quantifier) an error, never another name *)
Theorem C20_never_a_different_name : forall dns ips ids v,
  san_ok dns ips ids = true -> make_san dns ips ids = Ok v ->
  receptor_names v = Ok ids \/ exists e, receptor_names v = Err e.
Proof. exact decode_never_misnames. Qed.
Print Assumptions C20_never_a_different_name.

(* the extension contains exactly the requested names, in order: DNS, IP, node IDs *)
Theorem C20_exactly_the_requested_names : forall dns ips ids v,
  san_ok dns ips ids = true -> make_san dns ips ids = Ok v ->
  general_names v = Ok (san_pairs dns ips ids).
Proof. exact general_names_make_san. Qed.
Print Assumptions C20_exactly_the_requested_names.

(* the hypotheses are satisfiable by a non-trivial request (300-byte ID) *)
Example C20_nonvacuous :
  san_ok [str "a.example"%string; str "b"%string] [[10; 0; 0; 1]] [id_of_len 300; str "node-1"%string] = true
  /\ forallb utf8_valid [id_of_len 300; str "node-1"%string] = true.
Proof. exact san_ok_example. Qed.

(* the encoder of the pinned tree (fixed two-byte strip) violates the round trip at 113 bytes:
   kept as a theorem so that the historical defect is a checked fact, see known_findings.json *)
Theorem C20_pinned_encoder_refuted : exists ids,
  forallb utf8_valid ids = true /\ san_ok [] [] ids = true /\
  exists v, make_san_fixed2 [] [] ids = Ok v /\ receptor_names v <> Ok ids.
Proof. exact fixed2_refuted. Qed.
Print Assumptions C20_pinned_encoder_refuted.

(* ... and verify as exactly those IDs (with property C09's model of ReceptorVerifyFunc,
   Model/Tls.v): for a certificate whose subjectAltName was produced by MakeReceptorSAN from the node
   IDs [ids], presented with good chain / validity / usage facts for the role and an acceptable pin
   list, receptor-name verification with expected ID [x] succeeds if and only if [x] is one of [ids] *)
From Receptor Require Import Model.Tls Proofs.Tls.

Theorem C20_verify_accepts_exactly_requested : forall dns ips ids v vt r pins x f now,
  san_ok dns ips ids = true -> forallb utf8_valid ids = true ->
  make_san dns ips ids = Ok v ->
  f_names f = names_of_san (Some v) ->
  f_present f = true -> f_parses f = true -> role_of vt = Some r ->
  chain_ok r f = true -> time_ok f now = true -> eku_ok r f = true -> pins_ok pins f ->
  (verify (mkCfg vt HOST_RECEPTOR x pins) f now = Accept <-> In x ids).
Proof. exact verify_accepts_exactly_requested. Qed.
Print Assumptions C20_verify_accepts_exactly_requested.
